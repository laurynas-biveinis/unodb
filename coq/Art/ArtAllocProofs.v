(** The allocator view of the ART model (Art/ArtAlloc.v): after every history
    the multiset of live block sizes, maintained as live + allocs - frees, is
    the multiset of the blocks of the tree; its sum is the reported memory
    use; no operation frees a size that was not live before it began; clear
    and destruction return everything; operations that report "no change"
    neither allocate nor free.
    Multisets are compared through [cnt]: the number of blocks of one size is
    a node measure in the sense of ArtStats, so the balance of one step is
    [insert_root_measure] / [remove_root_measure]. *)
From Coq Require Import List ZArith Bool Lia Permutation.
From Unodb Require Import Base.Lex Art.ArtModel Art.ArtFault Art.ArtSpec Art.ArtAlloc
  Art.ArtLemmas Art.ArtScanSpec Art.ArtStats.
Import ListNotations.
Local Open Scope Z_scope.

Fixpoint cnt (x : Z) (l : list Z) : Z :=
  match l with [] => 0 | y :: l' => (if y =? x then 1 else 0) + cnt x l' end.

Lemma cnt_occ x l : cnt x l = Z.of_nat (count_occ Z.eq_dec l x).
Proof.
  induction l as [|y l IH]; [reflexivity|]. cbn [cnt count_occ]. rewrite IH.
  destruct (Z.eqb_spec y x), (Z.eq_dec y x); try contradiction; lia.
Qed.

Lemma cnt_nonneg x l : 0 <= cnt x l.
Proof. rewrite cnt_occ. lia. Qed.

Lemma cnt_app x l1 l2 : cnt x (l1 ++ l2) = cnt x l1 + cnt x l2.
Proof. rewrite !cnt_occ, count_occ_app. lia. Qed.

Lemma cnt_zero_nil l : (forall x, cnt x l = 0) -> l = [].
Proof. intros H. apply (count_occ_inv_nil Z.eq_dec). intros x. specialize (H x). rewrite cnt_occ in H. lia. Qed.

Lemma perm_cnt l1 l2 : Permutation l1 l2 -> forall x, cnt x l1 = cnt x l2.
Proof. intros H x. rewrite !cnt_occ. f_equal. now apply Permutation_count_occ. Qed.

Lemma cnt_perm l1 l2 : (forall x, cnt x l1 = cnt x l2) -> Permutation l1 l2.
Proof.
  intros H. apply (Permutation_count_occ Z.eq_dec). intros x. specialize (H x). rewrite !cnt_occ in H. lia.
Qed.

Lemma zsum_app l1 l2 : zsum (l1 ++ l2) = zsum l1 + zsum l2.
Proof. unfold zsum. induction l1 as [|y l1 IH]; cbn [fold_right app]; lia. Qed.

Lemma zsum_perm l1 l2 : Permutation l1 l2 -> zsum l1 = zsum l2.
Proof. unfold zsum. induction 1; cbn [fold_right]; lia. Qed.

Lemma live_remove_one_cnt x : forall l l', live_remove_one x l = Some l' ->
  forall y, cnt y l = (if x =? y then 1 else 0) + cnt y l'.
Proof.
  induction l as [|z l IH]; intros l' H y; cbn [live_remove_one] in H; [discriminate|].
  destruct (Z.eqb_spec x z) as [->|Hne].
  - injection H as <-. reflexivity.
  - destruct (live_remove_one x l) as [r|] eqn:Hr; [|discriminate]. injection H as <-.
    cbn [cnt]. rewrite (IH r eq_refl y). lia.
Qed.

Lemma live_remove_one_some x : forall l, 0 < cnt x l -> exists l', live_remove_one x l = Some l'.
Proof.
  induction l as [|z l IH]; cbn [cnt live_remove_one]; [lia|]. intros H.
  destruct (Z.eqb_spec x z) as [->|Hne]; [now eexists|].
  destruct (Z.eqb_spec z x) as [->|_]; [contradiction|].
  destruct (IH ltac:(lia)) as (r & ->). now eexists.
Qed.

Lemma free_all_cnt fs : forall l l', free_all fs l = Some l' -> forall y, cnt y l = cnt y fs + cnt y l'.
Proof.
  induction fs as [|f fs IH]; intros l l' H y; cbn [free_all] in H.
  - injection H as <-. reflexivity.
  - destruct (live_remove_one f l) as [r|] eqn:Hr; [|discriminate].
    rewrite (live_remove_one_cnt _ _ _ Hr y), (IH _ _ H y). cbn [cnt]. lia.
Qed.

Lemma free_all_some fs : forall l, (forall y, cnt y fs <= cnt y l) -> exists l', free_all fs l = Some l'.
Proof.
  induction fs as [|f fs IH]; intros l H; cbn [free_all]; [now eexists|].
  destruct (live_remove_one_some f l) as (r & Hr).
  { specialize (H f). cbn [cnt] in H. rewrite Z.eqb_refl in H. assert (A := cnt_nonneg f fs). lia. }
  rewrite Hr. apply IH. intros y. specialize (H y). cbn [cnt] in H.
  rewrite (live_remove_one_cnt _ _ _ Hr y) in H. lia.
Qed.

Lemma free_all_perm fs l l' : free_all fs l = Some l' -> Permutation l (fs ++ l').
Proof. intros H. apply cnt_perm. intros x. rewrite cnt_app. now apply free_all_cnt. Qed.

Lemma blocks_inode sz c p ch :
  blocks sz (Inode c p ch) = sz_of sz c :: flat_map (fun bc => blocks sz (snd bc)) ch.
Proof.
  cbn [blocks]. f_equal. induction ch as [|[b c'] ch IH]; [reflexivity|]. cbn [flat_map snd]. now f_equal.
Qed.

Definition blocks_of_size (sz : sizes) (x : Z) (n : node) : Z := cnt x (blocks sz n).
Definition inode_of_size (sz : sizes) (x : Z) (c : cls) : Z := if sz_of sz c =? x then 1 else 0.
Definition leaf_of_size (sz : sizes) (x : Z) (k v : list Z) : Z := if leaf_size sz k v =? x then 1 else 0.

Lemma blocks_of_size_leaf sz x id k v : blocks_of_size sz x (Leaf id k v) = leaf_of_size sz x k v.
Proof. unfold blocks_of_size, leaf_of_size. cbn [blocks cnt]. lia. Qed.

Lemma blocks_of_size_inode sz x c p ch : blocks_of_size sz x (Inode c p ch) = inode_of_size sz x c + csum (blocks_of_size sz x) ch.
Proof.
  unfold blocks_of_size. rewrite blocks_inode. cbn [cnt]. unfold inode_of_size. f_equal.
  induction ch as [|[b c'] ch IH]; [reflexivity|]. cbn [flat_map snd]. rewrite cnt_app, csum_cons, IH. reflexivity.
Qed.

Lemma tree_mem_zsum sz : forall n, tree_mem sz n = zsum (blocks sz n).
Proof.
  induction n as [id k v|c p ch IH] using node_ind2.
  - cbn [tree_mem blocks]. unfold zsum. cbn [fold_right]. lia.
  - rewrite tree_mem_inode, blocks_inode. unfold zsum at 1. cbn [fold_right]. fold (zsum (flat_map (fun bc => blocks sz (snd bc)) ch)).
    f_equal. induction ch as [|[b c'] ch IHc]; [reflexivity|].
    apply Forall_cons_iff in IH. destruct IH as [IH1 IH]. cbn [snd] in IH1.
    rewrite csum_cons. cbn [flat_map snd]. rewrite zsum_app, IH1, (IHc IH). reflexivity.
Qed.

Lemma db_tree_mem_zsum sz d : db_tree_mem sz d = zsum (db_blocks sz d).
Proof. unfold db_tree_mem, db_blocks. destruct (root d); [apply tree_mem_zsum|reflexivity]. Qed.

Lemma blocks_of_size_nonneg sz x : nonneg (blocks_of_size sz x) (inode_of_size sz x).
Proof. split; [intros c; unfold inode_of_size; destruct (_ =? _); lia|intros n; apply cnt_nonneg]. Qed.

Lemma db_blocks_cnt sz x d : cnt x (db_blocks sz d) = rootm (blocks_of_size sz x) (root d).
Proof. unfold db_blocks. now destruct (root d). Qed.

Lemma ev_ins_cnt sz x e k v :
  cnt x (ev_ins_allocs sz e k v) = ins_new (inode_of_size sz x) e + leaf_of_size sz x k v /\
  cnt x (ev_ins_frees sz e) = ins_old (inode_of_size sz x) e.
Proof.
  unfold leaf_of_size, inode_of_size. destruct e as [| | | |c|c|c|c|]; cbn [ins_old ins_new ev_ins_allocs ev_ins_frees cnt sz_of]; lia.
Qed.

Lemma ev_rem_cnt sz x e k v :
  cnt x (ev_rem_allocs sz e) = rem_new (inode_of_size sz x) e /\
  cnt x (ev_rem_frees sz e k v) = rem_old (inode_of_size sz x) e + leaf_of_size sz x k v.
Proof.
  unfold leaf_of_size, inode_of_size. destruct e as [| | | |c|c|c|c|]; try destruct c;
    cbn [rem_old rem_new ev_rem_allocs ev_rem_frees cnt sz_of smaller]; lia.
Qed.

Lemma insert_event_root d k v :
  insert_event d k v = match insert_root (root d) (next_id d) k v with Ok (Some (_, e)) => Some e | _ => None end.
Proof. unfold insert_event, insert_root. now destruct (root d). Qed.

Lemma remove_event_root d k :
  remove_event d k = match remove_root (root d) k with Ok (Some (_, e, kv)) => Some (e, kv) | _ => None end.
Proof.
  unfold remove_event, remove_root. destruct (root d) as [[lid lk lv|c p ch]|]; [|cbn [bind]|reflexivity].
  - now destruct (lex_compare k lk).
  - destruct (get_go _ _ _ _) as [[[gid gv]|]|]; [| |reflexivity]; now destruct (remove_go _ _ _ _) as [[|n' e]|].
Qed.

Lemma step_blocks sz d o x :
  cnt x (db_blocks sz (fst (step sz d o))) =
    cnt x (db_blocks sz d) + cnt x (op_allocs sz d o) - cnt x (op_frees sz d o) /\
  cnt x (op_frees sz d o) <= cnt x (db_blocks sz d).
Proof.
  assert (N := cnt_nonneg x (db_blocks sz d)).
  destruct o as [k|k v|k| |]; cbn [op_allocs op_frees cnt]; [cbn [step fst]; lia| | |cbn [step fst]; lia|].
  - unfold ins_allocs, ins_frees. rewrite insert_event_root, step_insert.
    destruct (insert_root _ _ k v) as [[[n' e]|]|er] eqn:H; cbn [fst cnt]; try lia.
    destruct (insert_root_measure _ _ _ (blocks_of_size_leaf sz x) (blocks_of_size_inode sz x) _ _ _ _ _ _ H) as (_ & A & B).
    destruct (ev_ins_cnt sz x e k v) as [-> ->]. specialize (B (blocks_of_size_nonneg sz x)).
    rewrite !db_blocks_cnt. cbn [root rootm]. lia.
  - unfold rem_allocs, rem_frees. rewrite remove_event_root, step_remove.
    destruct (remove_root _ k) as [[[[r' e] [lk lv]]|]|er] eqn:H; cbn [fst cnt]; try lia.
    destruct (remove_root_measure _ _ _ (blocks_of_size_leaf sz x) (blocks_of_size_inode sz x) _ _ _ _ _ _ H) as (A & B).
    destruct (ev_rem_cnt sz x e lk lv) as [-> ->]. specialize (B (blocks_of_size_nonneg sz x)).
    rewrite !db_blocks_cnt. cbn [root]. lia.
  - unfold db_blocks at 1. cbn [step fst db_clear root cnt]. lia.
Qed.

Definition AInv (sz : sizes) (d : db) (live : list Z) : Prop :=
  forall x, cnt x live = cnt x (db_blocks sz d).

Lemma live_step_inv sz d live o : AInv sz d live ->
  exists live', live_step sz d live o = Some live' /\ AInv sz (fst (step sz d o)) live'.
Proof.
  intros HI. unfold live_step.
  destruct (free_all_some (op_frees sz d o) (live ++ op_allocs sz d o)) as (l' & Hl').
  { intros y. rewrite cnt_app, (HI y). assert (A := cnt_nonneg y (op_allocs sz d o)).
    destruct (step_blocks sz d o y). lia. }
  exists l'. split; [exact Hl'|]. intros x.
  assert (A := free_all_cnt _ _ _ Hl' x). rewrite cnt_app, (HI x) in A.
  destruct (step_blocks sz d o x). lia.
Qed.

Lemma live_run_inv sz ops : forall d live, AInv sz d live ->
  exists live', live_run sz d live ops = Some live' /\ AInv sz (run_state sz d ops) live'.
Proof.
  induction ops as [|o ops IH]; intros d live HI; cbn [live_run run_state]; [now exists live|].
  destruct (live_step_inv sz d live o HI) as (l1 & -> & HI1). exact (IH _ _ HI1).
Qed.

Lemma AInv0 sz : AInv sz db0 [].
Proof. intros x. reflexivity. Qed.

Lemma live_run_snoc sz o ops : forall d live,
  live_run sz d live (ops ++ [o]) =
  match live_run sz d live ops with
  | Some l => live_step sz (run_state sz d ops) l o
  | None => None
  end.
Proof.
  induction ops as [|o' ops IH]; intros d live; cbn [live_run run_state app].
  - destruct (live_step sz d live o); reflexivity.
  - destruct (live_step sz d live o') as [l1|]; [apply IH|reflexivity].
Qed.

Lemma run_state_snoc sz o ops : forall d, run_state sz d (ops ++ [o]) = fst (step sz (run_state sz d ops) o).
Proof. induction ops as [|o' ops IH]; intros d; cbn [run_state app]; [reflexivity|apply IH]. Qed.

Theorem live_is_tree : forall sz ops,
  exists live, live_run sz db0 [] ops = Some live /\
               Permutation live (db_blocks sz (run_state sz db0 ops)).
Proof.
  intros sz ops. destruct (live_run_inv sz ops db0 [] (AInv0 sz)) as (l & Hl & HI).
  exists l. split; [exact Hl|]. apply cnt_perm. exact HI.
Qed.

Theorem mem_is_live : forall sz ops,
  exists live, live_run sz db0 [] ops = Some live /\
               mem (st (run_state sz db0 ops)) = zsum live.
Proof.
  intros sz ops. destruct (live_is_tree sz ops) as (l & Hl & HP). exists l. split; [exact Hl|].
  destruct (stats_are_tree_functions_all sz ops) as (_ & _ & ->).
  rewrite db_tree_mem_zsum. symmetry. now apply zsum_perm.
Qed.

Theorem frees_were_live : forall sz ops o,
  exists live rest,
    live_run sz db0 [] ops = Some live /\
    Permutation (live ++ op_allocs sz (run_state sz db0 ops) o)
                (op_frees sz (run_state sz db0 ops) o ++ rest) /\
    live_run sz db0 [] (ops ++ [o]) = Some rest.
Proof.
  intros sz ops o. destruct (live_run_inv sz ops db0 [] (AInv0 sz)) as (l & Hl & HI).
  destruct (live_step_inv sz _ l o HI) as (r & Hr & _).
  exists l, r. split; [exact Hl|]. split; [exact (free_all_perm _ _ _ Hr)|].
  now rewrite live_run_snoc, Hl.
Qed.

Theorem clear_returns_all : forall sz ops,
  live_run sz db0 [] (ops ++ [OClear]) = Some [].
Proof.
  intros sz ops. destruct (live_run_inv sz (ops ++ [OClear]) db0 [] (AInv0 sz)) as (l & Hl & HI).
  rewrite Hl. f_equal. apply cnt_zero_nil. intros x. rewrite (HI x), run_state_snoc. reflexivity.
Qed.

Theorem destroy_returns_all : forall sz ops,
  exists live, live_run sz db0 [] ops = Some live /\
               free_all (destroy_frees sz (run_state sz db0 ops)) live = Some [].
Proof.
  intros sz ops. destruct (live_run_inv sz ops db0 [] (AInv0 sz)) as (l & Hl & HI).
  exists l. split; [exact Hl|]. unfold destroy_frees.
  destruct (free_all_some (db_blocks sz (run_state sz db0 ops)) l) as (r & Hr).
  { intros y. rewrite (HI y). lia. }
  rewrite Hr. f_equal. apply cnt_zero_nil. intros x.
  assert (A := free_all_cnt _ _ _ Hr x). rewrite (HI x) in A. lia.
Qed.

(** no operation returns a block it obtained itself *)
Theorem frees_were_live_before : forall sz ops o,
  exists live kept,
    live_run sz db0 [] ops = Some live /\
    Permutation live (op_frees sz (run_state sz db0 ops) o ++ kept).
Proof.
  intros sz ops o. destruct (live_run_inv sz ops db0 [] (AInv0 sz)) as (l & Hl & HI).
  destruct (free_all_some (op_frees sz (run_state sz db0 ops) o) l) as (r & Hr).
  { intros y. rewrite (HI y). apply step_blocks. }
  exists l, r. split; [exact Hl|]. exact (free_all_perm _ _ _ Hr).
Qed.

(** a duplicate insert, a remove of an absent key, any step the model refuses
    with an error, get, empty *)
Definition no_change (sz : sizes) (d : db) (o : op) : Prop :=
  match o with
  | OInsert _ _ | ORemove _ => snd (step sz d o) <> RBool true
  | OClear => False
  | OGet _ | OEmpty => True
  end.

Theorem noop_neutral : forall sz d live o, no_change sz d o ->
  op_allocs sz d o = [] /\ op_frees sz d o = [] /\ live_step sz d live o = Some live /\
  fst (step sz d o) = d.
Proof.
  intros sz d live o H.
  assert (E : op_allocs sz d o = [] /\ op_frees sz d o = [] /\ fst (step sz d o) = d).
  { destruct o as [k|k v|k| |]; cbn [no_change op_allocs op_frees] in *;
      [now repeat split| | |now repeat split|contradiction].
    - unfold ins_allocs, ins_frees. rewrite insert_event_root. rewrite step_insert in *.
      destruct (insert_root _ _ k v) as [[[n' e]|]|er]; [now contradiction H|now repeat split..].
    - unfold rem_allocs, rem_frees. rewrite remove_event_root. rewrite step_remove in *.
      destruct (remove_root _ k) as [[[[r' e] [lk lv]]|]|er]; [now contradiction H|now repeat split..]. }
  destruct E as (E1 & E2 & E3). repeat split; try assumption.
  unfold live_step. rewrite E1, E2, app_nil_r. reflexivity.
Qed.

(** the number of allocations is the one the fault model (C08) counts *)
Lemma db_insert_allocs_root d k v :
  db_insert_allocs d k v =
  (r <- insert_root (root d) (next_id d) k v ;; Ok (match r with None => O | Some (_, e) => ev_allocs e end)).
Proof. unfold db_insert_allocs, insert_root. now destruct (root d). Qed.

Theorem alloc_count_insert : forall sz d k v,
  db_insert_allocs d k v = Ok (length (op_allocs sz d (OInsert k v))) \/
  exists e, db_insert_allocs d k v = Err e /\ op_allocs sz d (OInsert k v) = [].
Proof.
  intros sz d k v. cbn [op_allocs]. unfold ins_allocs. rewrite db_insert_allocs_root, insert_event_root.
  destruct (insert_root _ _ k v) as [[[n' e]|]|er] eqn:H; cbn [bind]; [left|now left|right; now exists er].
  apply insert_root_ev in H.
  destruct e as [| | | |c|c|c|c|]; try discriminate; reflexivity.
Qed.
