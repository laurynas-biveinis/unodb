(** C16: along every history inside the domain of C01g (prefix-free operation
    keys, 7-byte prefix capacity guard) none of the modelled assertions fails;
    outside the domain they do (the K1 key pair, the collapse guard, a
    looked-up key that is a proper prefix of stored keys). *)
From Coq Require Import String List ZArith Bool Lia Sorted.
From Unodb Require Import Base.Lex Art.ArtModel Art.ArtSpec Art.ArtInv Art.ArtLemmas
  Art.ArtGenInv Art.ArtGenLemmas Art.ArtGenProofs Art.ArtGenRun Art.ArtAsserts.
Import ListNotations.

Lemma chk_true name b : b = true -> chk name b = [].
Proof. intros ->. reflexivity. Qed.

Lemma chk_le name a b : a <= b -> chk name (a <=? b) = [].
Proof. intros H. apply chk_true. now apply Nat.leb_le. Qed.

Lemma chk_lt name a b : a < b -> chk name (a <? b) = [].
Proof. intros H. apply chk_true. now apply Nat.ltb_lt. Qed.

Lemma chk_eq name a b : a = b -> chk name (a =? b) = [].
Proof. intros H. apply chk_true. now apply Nat.eqb_eq. Qed.

Lemma app_nil2 {A} (l1 l2 : list A) : l1 = [] -> l2 = [] -> l1 ++ l2 = [].
Proof. intros -> ->. reflexivity. Qed.

(** One goal per check of a log [chk _ _ ++ .. ++ chk _ _], each as the
    proposition its comparison decides; those true by computation are closed. *)
Ltac silent :=
  repeat match goal with
         | |- _ ++ _ = [] => apply app_nil2
         | |- chk _ _ = [] => first [apply chk_lt | apply chk_le | apply chk_eq | apply chk_true]
         end; try reflexivity.

Lemma ssorted_sortedb l : StronglySorted Z.lt l -> sortedb l = true.
Proof.
  induction l as [|x l IH]; intros H; [reflexivity|].
  inversion H as [|? ? Hs Hf]; subst. destruct l as [|y l]; [reflexivity|].
  change (sortedb (x :: y :: l)) with (Z.leb x y && sortedb (y :: l)).
  rewrite (IH Hs). inversion Hf; subst. apply andb_true_iff. split; [apply Z.leb_le; lia|reflexivity].
Qed.

Lemma ssorted_no_adjacent l : StronglySorted Z.lt l -> no_adjacent_eqb l = true.
Proof.
  induction l as [|x l IH]; intros H; [reflexivity|].
  inversion H as [|? ? Hs Hf]; subst. destruct l as [|y l]; [reflexivity|].
  change (no_adjacent_eqb (x :: y :: l)) with (negb (Z.eqb x y) && no_adjacent_eqb (y :: l)).
  rewrite (IH Hs). inversion Hf; subst. apply andb_true_iff. split; [|reflexivity].
  apply negb_true_iff, Z.eqb_neq. lia.
Qed.

Lemma keys_sorted_a ch : keys_sorted ch -> a_keys_sorted ch = true.
Proof. exact (ssorted_sortedb _). Qed.

Lemma keys_nodup_a ch : keys_sorted ch -> a_keys_no_dup ch = true.
Proof. exact (ssorted_no_adjacent _). Qed.

Lemma removed_sorted_a l1 x l2 :
  keys_sorted (l1 ++ x :: l2) -> a_keys_sorted (remove_nth (length l1) (l1 ++ x :: l2)) = true.
Proof.
  intros HS. rewrite remove_nth_mid. apply keys_sorted_a. unfold keys_sorted in *. rewrite map_app in *.
  exact (ssorted_remove_mid _ _ _ HS).
Qed.

Lemma two_asserts_silent b1 b2 : b1 <> b2 -> two_asserts b1 b2 = [].
Proof.
  intros Hne. unfold two_asserts. silent.
  - unfold a_two_distinct. now apply negb_true_iff, Z.eqb_neq.
  - apply two_children_length.
  - apply keys_sorted_a. now apply two_children_sorted.
Qed.

Lemma leaf_split_silent lk k depth :
  leaf_split_guard lk k depth = true -> leaf_split_asserts lk k depth = [].
Proof.
  unfold leaf_split_guard, leaf_split_asserts. cbv zeta. intros H.
  set (n' := common_pad prefix_capacity (skipn depth lk) (skipn depth k)) in *.
  assert (Hn : n' <= prefix_capacity) by apply common_pad_le.
  destruct (nth_error lk (n' + depth)) as [b1|]; [|reflexivity].
  destruct (nth_error (skipn depth k) n') as [b2|]; [|reflexivity].
  silent; unfold prefix_capacity in *; rewrite ?firstn_length; try lia.
  apply two_asserts_silent. now apply negb_true_iff, Z.eqb_neq in H.
Qed.

Lemma prefix_split_silent p sl k depth :
  sl < length p -> length p <= prefix_capacity ->
  (forall sb nb, nth_error p sl = Some sb -> nth_error k (depth + sl) = Some nb -> sb <> nb) ->
  prefix_split_asserts p sl k depth = [].
Proof.
  intros Hsl Hp Hne. unfold prefix_split_asserts.
  destruct (nth_error p sl) as [sb|]; [|reflexivity].
  destruct (nth_error k (depth + sl)) as [nb|]; [|reflexivity].
  silent; unfold prefix_capacity in *; rewrite ?skipn_length; try lia.
  apply two_asserts_silent. now apply Hne.
Qed.

(** get_sorted_key_array_insert_position *)
Lemma first_ge_a ch b : ~ In b (map fst ch) ->
  if first_ge ch b =? length ch then True
  else a_pos16_lt (first_ge ch b) ch && a_pos16_ne (first_ge ch b) ch b = true.
Proof.
  induction ch as [|[x c] ch IH]; intros Hn; [exact I|].
  cbn [map fst In] in Hn. cbn [first_ge length].
  destruct (Z.leb_spec b x) as [Hle|Hgt]; [|apply IH; tauto].
  unfold a_pos16_ne. cbn. apply negb_true_iff, Z.eqb_neq. intros ->. apply Hn. now left.
Qed.

Lemma absent_a ch b : find_child ch b 0 = None -> a_key_byte_absent ch b = true.
Proof. unfold a_key_byte_absent. now intros ->. Qed.

Lemma add_asserts_silent c ch b :
  keys_sorted ch -> ~ In b (map fst ch) -> find_child ch b 0 = None ->
  min_size c <= length ch <= cap c -> S (length ch) <= 256 ->
  add_asserts c ch b = [].
Proof.
  intros HS Hn Hfc Hsz H256. unfold add_asserts.
  assert (HS' : a_keys_sorted (insert_at (insert_pos c ch b) (b, dummy_leaf) ch) = true)
    by (apply keys_sorted_a; now apply insert_pos_sorted).
  assert (Hnf : length ch < cap c -> add_nonfull_asserts c ch b = []).
  { intros Hlt. unfold add_nonfull_asserts. destruct c; cbn [insert_pos] in *.
    - silent; [exact Hlt|now apply keys_sorted_a|exact HS'].
    - assert (H16 := first_ge_a ch b Hn). unfold a_pos16_result.
      destruct (first_ge ch b =? length ch); [|apply andb_true_iff in H16; destruct H16 as [-> ->]];
        (silent; [exact Hlt|now apply keys_sorted_a|now apply keys_nodup_a|exact HS']).
    - silent; [exact Hlt|apply Hsz|now apply absent_a].
    - silent; [exact Hlt|now apply absent_a]. }
  destruct (cls_eqb c C256) eqn:Hc.
  - apply Hnf. destruct c; try discriminate. cbn [cap]. lia.
  - destruct (Nat.eqb_spec (length ch) (cap c)) as [Hfull|Hnfull]; [|apply Hnf; lia].
    unfold grow_asserts. destruct c; try discriminate;
      (silent; [rewrite insert_at_length, Hfull; reflexivity|]); [exact Hfull|now apply absent_a..].
Qed.

Lemma remove_leaf_silent c l1 x l2 :
  keys_sorted (l1 ++ x :: l2) -> remove_leaf_asserts c (l1 ++ x :: l2) (length l1) = [].
Proof.
  intros HS. unfold remove_leaf_asserts.
  destruct c; silent; first [now apply removed_sorted_a | now apply keys_sorted_a | rewrite app_length; cbn [length]; lia].
Qed.

Lemma shrink_silent c l1 x l2 :
  keys_sorted (l1 ++ x :: l2) -> length (l1 ++ x :: l2) = min_size c -> c <> C4 ->
  shrink_asserts c (l1 ++ x :: l2) (length l1) = [].
Proof.
  intros HS Hmin Hc. unfold shrink_asserts. assert (HS' := removed_sorted_a _ _ _ HS).
  rewrite remove_nth_mid in *. rewrite app_length in Hmin. cbn [length] in Hmin.
  destruct c; [congruence| | |]; cbn [min_size smaller cap] in *; silent;
    first [exact HS' | rewrite !app_length; cbn [length]; lia].
Qed.

Lemma collapse_silent (p : list Z) (ch : list (Z * node)) (i : nat) :
  length ch = 2 -> i < 2 -> length p <= prefix_capacity ->
  match nth_error ch (if Nat.eqb i 0 then 1 else 0) with
  | Some (_, Inode _ p3 _) => (length p + 1 + length p3 <=? prefix_capacity) = true
  | _ => True
  end ->
  collapse_asserts p ch i = [].
Proof.
  intros Hlen Hi Hp Hfit. unfold collapse_asserts.
  destruct (nth_error ch (if Nat.eqb i 0 then 1 else 0)) as [[sb [|c3 p3 ch3]]|];
    try apply Nat.leb_le in Hfit;
    silent; unfold prefix_capacity in *; rewrite ?app_length; cbn [length min_size]; lia.
Qed.

Lemma visit_silent c p ch : length p <= prefix_capacity -> visit_asserts (Inode c p ch) p = [].
Proof. intros Hp. unfold visit_asserts. silent; unfold prefix_capacity in *; lia. Qed.

Lemma descend_silent (pi p k : list Z) :
  length p <= prefix_capacity -> length pi + length p < length k ->
  descend_asserts (length p) p (skipn (length pi) k) = [].
Proof. intros Hp Hd. unfold descend_asserts. silent; unfold prefix_capacity in *; rewrite ?skipn_length; lia. Qed.

Lemma step_silent d k : d < length k -> step_asserts (skipn d k) = [].
Proof. intros Hd. unfold step_asserts. silent; rewrite ?skipn_length; lia. Qed.

Lemma get_asserts_silent k : forall fuel n pi,
  WFg n pi -> ext pi k -> pfk k (leaves n) -> get_asserts fuel n k (length pi) = [].
Proof.
  induction fuel as [|f IH]; intros n pi HWF Hext Hpf; [reflexivity|].
  destruct n as [lid lk lv|c p ch]; [reflexivity|].
  assert (Hp7 := WFg_prefix_fits _ _ _ _ HWF).
  cbn [get_asserts]. apply app_nil2; [now apply visit_silent|].
  destruct (inode_prelude_g k c p ch pi HWF Hext Hpf) as (_ & [(Hsl & _)|(Hsl & b & Hb & Hext' & _)]).
  - apply Nat.ltb_lt in Hsl. now rewrite Hsl.
  - assert (Hd : length pi + length p < length k) by (apply nth_error_Some; congruence).
    rewrite Hsl, Nat.ltb_irrefl, Hb.
    (* [descend_asserts] without its first check, written out in [get_asserts] *)
    silent; [unfold prefix_capacity in *; rewrite ?skipn_length; lia..|].
    destruct (find_child ch b 0) as [[i c']|] eqn:Hfc; [|reflexivity].
    destruct (descend_child k c p ch pi b i c' HWF Hpf Hb Hfc) as (_ & _ & _ & _ & Hc' & Hpf' & Hlen & _).
    rewrite <- Hlen. apply app_nil2; [now apply step_silent|now apply IH].
Qed.

Lemma insert_asserts_silent k : Forall is_byte_z k -> forall fuel n pi,
  WFg n pi -> ext pi k -> pfk k (leaves n) ->
  insert_fits fuel n k (length pi) = true ->
  insert_asserts fuel n k (length pi) = [].
Proof.
  intros HkB. induction fuel as [|f IH]; intros n pi HWF Hext Hpf Hfits; [reflexivity|].
  destruct n as [lid lk lv|c p ch]; cbn [insert_asserts]; cbn [insert_fits] in Hfits.
  - destruct (lex_compare k lk); [reflexivity| |]; now apply leaf_split_silent.
  - assert (Hp7 := WFg_prefix_fits _ _ _ _ HWF).
    apply app_nil2; [now apply visit_silent|].
    destruct (inode_prelude_g k c p ch pi HWF Hext Hpf)
      as (_ & [(Hsl & _ & _ & sb & nb & Hsb & Hnb & Hsn)|(Hsl & b & Hb & Hext' & _)]).
    + rewrite (proj2 (Nat.ltb_lt _ _) Hsl). apply prefix_split_silent; [exact Hsl|exact Hp7|].
      intros sb' nb' E1 E2. congruence.
    + assert (Hd : length pi + length p < length k) by (apply nth_error_Some; congruence).
      rewrite Hsl, Nat.ltb_irrefl, Hb in Hfits |- *.
      apply app_nil2; [now apply descend_silent|].
      destruct (find_child ch b 0) as [[i c']|] eqn:Hfc.
      * destruct (descend_child k c p ch pi b i c' HWF Hpf Hb Hfc) as (_ & _ & _ & _ & Hc' & Hpf' & Hlen & _).
        rewrite <- Hlen in *. apply app_nil2; [now apply step_silent|now apply IH].
      * assert (Hfc' := find_child_none _ _ _ Hfc).
        assert (H256 := room_for_absent_byte _ _ _ _ _ HWF Hfc' (Forall_nth_error is_byte_z k _ b HkB Hb)).
        apply WFg_inode in HWF. destruct HWF as (_ & _ & HS & Hsz & _).
        now apply add_asserts_silent.
Qed.

Lemma remove_asserts_silent k : forall fuel c p ch pi,
  WFg (Inode c p ch) pi -> ext pi k -> pfk k (leaves (Inode c p ch)) ->
  remove_fits fuel (Inode c p ch) k (length pi) = true ->
  remove_asserts fuel (Inode c p ch) k (length pi) = [].
Proof.
  induction fuel as [|f IH]; intros c p ch pi HWF Hext Hpf Hfits; [reflexivity|].
  assert (Hp7 := WFg_prefix_fits _ _ _ _ HWF).
  cbn [remove_asserts]. cbn [remove_fits] in Hfits. apply app_nil2; [now apply visit_silent|].
  destruct (inode_prelude_g k c p ch pi HWF Hext Hpf) as (_ & [(Hsl & _)|(Hsl & b & Hb & Hext' & _)]).
  - apply Nat.ltb_lt in Hsl. now rewrite Hsl.
  - assert (Hd : length pi + length p < length k) by (apply nth_error_Some; congruence).
    rewrite Hsl, Nat.ltb_irrefl, Hb in Hfits |- *.
    apply app_nil2; [now apply descend_silent|].
    destruct (find_child ch b 0) as [[i c']|] eqn:Hfc; [|reflexivity].
    destruct (descend_child k c p ch pi b i c' HWF Hpf Hb Hfc) as (l1 & l2 & -> & -> & Hc' & Hpf' & Hlen & _).
    apply WFg_inode in HWF. destruct HWF as (_ & _ & HS & _).
    destruct c' as [lid lk lv|c3 p3 ch3].
    + destruct (lex_compare k lk); try reflexivity.
      destruct (Nat.eqb_spec (length (l1 ++ (b, Leaf lid lk lv) :: l2)) (min_size c)) as [Hmin|Hnmin];
        [|now apply remove_leaf_silent].
      destruct c; try (apply shrink_silent; [exact HS|exact Hmin|discriminate]).
      apply collapse_silent; [exact Hmin| |exact Hp7|].
      * cbn [min_size] in Hmin. rewrite app_length in Hmin. cbn [length] in Hmin. lia.
      * destruct (nth_error _ _) as [[sb [|c3 p3 ch3]]|]; try exact I. exact Hfits.
    + rewrite <- Hlen in *. apply app_nil2; [now apply step_silent|now apply IH].
Qed.

Lemma assert_log_silent d s o : Invg d s -> op_pf s o = true -> op_fits d o = true -> assert_log d o = [].
Proof.
  intros HInv Hop Hfits. assert (Hk := fun k => op_pf_key d s o k HInv Hop).
  destruct HInv as (HWF & _ & _).
  unfold assert_log, db_WFg, db_leaves, op_fits in *.
  destruct o as [k|k v|k| |]; cbn [op_key] in Hk; destruct (root d) as [n|]; try reflexivity.
  - destruct (Hk k eq_refl) as [HkB Hpf].
    exact (get_asserts_silent k (fuel_for k) n [] HWF (ext_nil k) Hpf).
  - destruct (Hk k eq_refl) as [HkB Hpf].
    exact (insert_asserts_silent k HkB (fuel_for k) n [] HWF (ext_nil k) Hpf Hfits).
  - destruct (Hk k eq_refl) as [HkB Hpf]. destruct n as [|c p ch]; [reflexivity|].
    exact (remove_asserts_silent k (fuel_for k) c p ch [] HWF (ext_nil k) Hpf Hfits).
Qed.

Lemma run_logs_silent sz : forall ops d s, Invg d s -> hist_ok sz d s ops = true ->
  Forall (fun l : list string => l = []) (run_logs sz d ops).
Proof.
  induction ops as [|o ops IH]; intros d s HInv Hops; [constructor|].
  cbn [hist_ok] in Hops. apply andb_true_iff in Hops. destruct Hops as [Ho Hops].
  apply andb_true_iff in Ho. destruct Ho as [Hpf Hfits].
  cbn [run_logs]. constructor; [exact (assert_log_silent d s o HInv Hpf Hfits)|].
  destruct (step_correct_g sz d s o HInv Hpf Hfits) as [_ HInv'].
  exact (IH _ _ HInv' Hops).
Qed.

Theorem asserts_silent : forall sz ops, hist_ok sz db0 ([], 0%Z) ops = true ->
  Forall (fun l : list string => l = []) (run_logs sz db0 ops).
Proof. intros sz ops H. exact (run_logs_silent sz ops db0 _ Invg_init H). Qed.

Lemma run_logs_nth sz : forall ops d i, i < length ops ->
  nth_error (run_logs sz d ops) i = Some (assert_log (run_state sz d (firstn i ops)) (nth i ops OEmpty)).
Proof.
  induction ops as [|o ops IH]; intros d i Hi; [cbn in Hi; lia|].
  destruct i as [|i]; [reflexivity|]. cbn [run_logs nth_error firstn run_state nth]. apply IH. cbn in Hi. lia.
Qed.

Theorem asserts_silent_at : forall sz ops i, hist_ok sz db0 ([], 0%Z) ops = true -> i < length ops ->
  assert_log (run_state sz db0 (firstn i ops)) (nth i ops OEmpty) = [].
Proof.
  intros sz ops i H Hi. assert (F := asserts_silent sz ops H). rewrite Forall_forall in F.
  apply F. eapply nth_error_In. now apply run_logs_nth.
Qed.

(** that every name passed to [chk] by the [*_asserts] functions is in [check_names] is not stated *)
Lemma chk_names name b : In name check_names -> incl (chk name b) check_names.
Proof. intros H x Hx. unfold chk in Hx. destruct b; [contradiction|]. destruct Hx as [<-|[]]. exact H. Qed.

Definition k1_sz : sizes := {| sz_leaf := 11; sz4 := 48; sz16 := 160; sz48 := 672; sz256 := 2064 |}%Z.

Theorem assert_fires_outside_domain :
  (* K1: two prefix-free 10-byte keys sharing 9 bytes: add_two_to_empty's key1 != key2 *)
  (exists ops, hist_pf ([], 0%Z) ops = true /\ hist_ok k1_sz db0 ([], 0%Z) ops = false /\
               In "a_two_distinct" (concat (run_logs k1_sz db0 ops))) /\
  (* collapse beyond the prefix capacity: key_prefix::prepend *)
  (exists ops, hist_pf ([], 0%Z) ops = true /\ hist_ok k1_sz db0 ([], 0%Z) ops = false /\
               hist_ok k1_sz db0 ([], 0%Z) (removelast ops) = true /\
               In "a_kp_prepend_fits" (concat (run_logs k1_sz db0 ops))) /\
  (* a looked-up key that is a proper prefix of the stored keys: key_view shift_right *)
  (exists ops, hist_pf ([], 0%Z) ops = false /\
               In "a_key_shift_view" (concat (run_logs k1_sz db0 ops))).
Proof.
  split; [|split].
  - exists [OInsert [97;97;97;97;97;97;97;97;97;88] [1]; OInsert [97;97;97;97;97;97;97;97;97;89] [2]]%Z.
    vm_compute. repeat split. now left.
  - exists [OInsert [1;2;9] [1]; OInsert [1;2;3;4;5;6;7;8;9;1] [2]; OInsert [1;2;3;4;5;6;7;8;9;2] [3];
            OGet [1;2;3;4;5;6;7;8;9;1]; ORemove [1;2;9]]%Z.
    vm_compute. repeat split. now left.
  - exists [OInsert [1;0;3] [1]; OInsert [1;0;4] [2]; OGet [1]]%Z.
    vm_compute. repeat split. now left.
Qed.

(** a history inside the domain on which the assertion sites are reached *)

Definition ex_keys (n : nat) : list (list Z) := map (fun i => [5; Z.of_nat i; 7]%Z) (seq 0 n).
Definition ex_asserts : list op :=
  ([OInsert [1;2;3] [10]; OInsert [1;2;4;5] [11] (* leaf split *); OInsert [1;9] [12] (* prefix split *);
    OInsert [2] [13]; OGet [1;2;4;5]] ++
   map (fun k => OInsert k [1]) (ex_keys 50) (* growth 4 -> 16 -> 48 -> 256 *) ++
   [OGet [5;49;7]; OGet [5;77;7]] ++
   map ORemove (ex_keys 50) (* shrink 256 -> 48 -> 16 -> 4, collapse *) ++
   [ORemove [1;9] (* collapse into an inner node *); ORemove [2]; ORemove [1;2;3]; ORemove [1;2;4;5]; OEmpty])%Z.

Definition ev_of_step (sz : sizes) (d : db) (o : op) : ev :=
  match o, root d with
  | OInsert k v, Some n =>
      match insert_go (fuel_for k) n k v 0%Z 0 with Ok (Some (_, e)) => e | _ => ENone end
  | ORemove k, Some n =>
      match remove_go (fuel_for k) n k 0 with Ok (RmReplaced _ e) => e | _ => ENone end
  | _, _ => ENone
  end.
Fixpoint run_events (sz : sizes) (d : db) (ops : list op) : list ev :=
  match ops with
  | [] => []
  | o :: ops' => ev_of_step sz d o :: run_events sz (fst (step sz d o)) ops'
  end.
Definition ev_eqb (a b : ev) : bool :=
  match a, b with
  | ENone, ENone | ERootLeaf, ERootLeaf | ELeafSplit, ELeafSplit | EPrefixSplit, EPrefixSplit | ERemoveRoot, ERemoveRoot => true
  | EAdd c, EAdd c' | EGrow c, EGrow c' | ERemoveLeaf c, ERemoveLeaf c' | EShrink c, EShrink c' => cls_eqb c c'
  | _, _ => false
  end.
Definition has_ev (e : ev) (l : list ev) : bool := existsb (ev_eqb e) l.

Lemma ex_asserts_nonvacuous :
  hist_ok k1_sz db0 ([], 0%Z) ex_asserts = true /\
  forallb (fun e => has_ev e (run_events k1_sz db0 ex_asserts))
    [ELeafSplit; EPrefixSplit; EAdd C4; EAdd C16; EAdd C48; EAdd C256; EGrow C16; EGrow C48; EGrow C256;
     ERemoveLeaf C4; ERemoveLeaf C16; ERemoveLeaf C48; ERemoveLeaf C256;
     EShrink C256; EShrink C48; EShrink C16; EShrink C4] = true /\
  concat (run_logs k1_sz db0 ex_asserts) = [].
Proof. vm_compute. repeat split. Qed.
