(** Allocation-failure model for insert / remove (C08).  Every operation
    first performs all its allocations, in source order (leaf, then inner
    node), and only then touches the tree: a failure at the k-th allocation
    therefore aborts the operation before any change.  The number of
    allocation points of an operation is a function of the structural event
    it performs. *)
From Coq Require Import List ZArith Bool Lia.
From Unodb Require Import Base.Lex Art.ArtModel.
Import ListNotations.
Local Open Scope Z_scope.

(** allocations made by an operation performing structural event e:
    insert: the leaf, plus the new inner node for a leaf split, a prefix
    split or a growth; remove: the smaller node when an N16/N48/N256 shrinks *)
Definition ev_allocs (e : ev) : nat :=
  match e with
  | ERootLeaf | EAdd _ => 1
  | ELeafSplit | EPrefixSplit | EGrow _ => 2
  | EShrink C4 => 0
  | EShrink _ => 1
  | _ => 0
  end%nat.

Definition db_insert_allocs (d : db) (k v : list Z) : res nat :=
  match root d with
  | None => Ok 1%nat
  | Some n =>
      r <- insert_go (fuel_for k) n k v (next_id d) O ;;
      Ok (match r with None => O | Some (_, e) => ev_allocs e end)
  end.

Definition db_remove_allocs (d : db) (k : list Z) : res nat :=
  match root d with
  | None => Ok O
  | Some (Leaf _ _ _) => Ok O
  | Some n =>
      r <- remove_go (fuel_for k) n k O ;;
      Ok (match r with RmNotFound => O | RmReplaced _ e => ev_allocs e end)
  end.

Inductive outcome := Done (d : db) (b : bool) | Raised (d : db).

(** [fail = Some k]: the k-th allocation made by this operation (and every later one) fails *)
Definition db_insert_fault (fail : option nat) (sz : sizes) (d : db) (k v : list Z) : res outcome :=
  n <- db_insert_allocs d k v ;;
  match fail with
  | Some j => if (Nat.leb 1 j && Nat.leb j n)%bool then Ok (Raised d)
              else r <- db_insert sz d k v ;; Ok (Done (fst r) (snd r))
  | None => r <- db_insert sz d k v ;; Ok (Done (fst r) (snd r))
  end.

Definition db_remove_fault (fail : option nat) (sz : sizes) (d : db) (k : list Z) : res outcome :=
  n <- db_remove_allocs d k ;;
  match fail with
  | Some j => if (Nat.leb 1 j && Nat.leb j n)%bool then Ok (Raised d)
              else r <- db_remove sz d k ;; Ok (Done (fst r) (snd r))
  | None => r <- db_remove sz d k ;; Ok (Done (fst r) (snd r))
  end.

Theorem insert_fault_strong sz d k v j d' :
  db_insert_fault (Some j) sz d k v = Ok (Raised d') ->
  d' = d /\ db_insert_fault None sz d' k v = (r <- db_insert sz d k v ;; Ok (Done (fst r) (snd r))).
Proof.
  unfold db_insert_fault. destruct (db_insert_allocs d k v) as [n|e] eqn:A; cbn [bind]; [|discriminate].
  destruct (Nat.leb 1 j && Nat.leb j n)%bool.
  - intros H. injection H as <-. split; [reflexivity|]. rewrite A. reflexivity.
  - destruct (db_insert sz d k v); cbn [bind]; discriminate.
Qed.

Theorem remove_fault_strong sz d k j d' :
  db_remove_fault (Some j) sz d k = Ok (Raised d') ->
  d' = d /\ db_remove_fault None sz d' k = (r <- db_remove sz d k ;; Ok (Done (fst r) (snd r))).
Proof.
  unfold db_remove_fault. destruct (db_remove_allocs d k) as [n|e] eqn:A; cbn [bind]; [|discriminate].
  destruct (Nat.leb 1 j && Nat.leb j n)%bool.
  - intros H. injection H as <-. split; [reflexivity|]. rewrite A. reflexivity.
  - destruct (db_remove sz d k); cbn [bind]; discriminate.
Qed.

Theorem insert_fault_beyond sz d k v j n :
  db_insert_allocs d k v = Ok n -> (n < j)%nat ->
  db_insert_fault (Some j) sz d k v = db_insert_fault None sz d k v.
Proof.
  intros A Hj. unfold db_insert_fault. rewrite A. cbn [bind].
  replace (Nat.leb j n) with false by (symmetry; apply Nat.leb_gt; lia). now rewrite andb_false_r.
Qed.

Theorem ev_allocs_bound e : (ev_allocs e <= 2)%nat.
Proof. destruct e as [| | | | |c|c|[| | |]|]; cbn; lia. Qed.

Theorem insert_noop_no_alloc d k v n :
  db_insert_allocs d k v = Ok n -> (forall sz, exists d', db_insert sz d k v = Ok (d', false)) -> n = O.
Proof.
  unfold db_insert_allocs, db_insert. intros A H. destruct (H {| sz_leaf := 0; sz4 := 0; sz16 := 0; sz48 := 0; sz256 := 0 |}) as (d' & E).
  destruct (root d) as [nd|]; [|discriminate].
  destruct (insert_go (fuel_for k) nd k v (next_id d) 0) as [[[n' e]|]|er]; cbn [bind] in *; try discriminate.
  now injection A as <-.
Qed.
