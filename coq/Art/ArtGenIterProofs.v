(** Iterator and scans on [WFg] trees (variable-length prefix-free keys):
    leaves strictly ascending in the byte-wise order; scan / scan_from /
    scan_range visit exactly the entries of the requested interval, for a seek
    key that is prefix-free w.r.t. the stored keys (the far bound of a range
    is only compared, it may be any byte string). *)
From Coq Require Import List ZArith Bool Lia Sorted Permutation.
From Unodb Require Import Base.Lex Art.ArtModel Art.ArtIter Art.ArtSpec Art.ArtInv Art.ArtLemmas
  Art.ArtScanSpec Art.ArtIterLemmas Art.ArtIterStack
  Art.ArtGenInv Art.ArtGenLemmas Art.ArtGenProofs Art.ArtGenRun.
Import ListNotations.

Lemma WFg_tagged c p ch pi : WFg (Inode c p ch) pi -> tagged (pi ++ p) ch.
Proof.
  intros H. assert (HT := WFg_tags _ _ _ _ H). unfold tagged. rewrite Forall_forall in *.
  intros bc Hin. split.
  - rewrite app_length. exact (HT bc Hin).
  - apply Forall_forall. intros e He.
    apply (WFg_shorter _ _ _ _ e H). rewrite leaves_inode. apply in_cleaves. now exists bc.
Qed.

Lemma cleaves_sorted q ch : tagged q ch -> keys_sorted ch ->
  Forall (fun bc => StronglySorted entries_lt (leaves (snd bc))) ch ->
  StronglySorted entries_lt (cleaves ch).
Proof.
  induction ch as [|[x c] ch IH]; intros HT HS HF; [constructor|].
  rewrite cleaves_cons.
  apply Forall_cons_iff in HT. destruct HT as [HTc HT]. cbn [fst snd] in HTc.
  apply Forall_cons_iff in HF. destruct HF as [HFc HF]. cbn [snd] in HFc.
  assert (HS' := HS). unfold keys_sorted in HS'. cbn [map fst] in HS'.
  apply StronglySorted_inv in HS'. destruct HS' as [HS1 HS2].
  apply SSorted_app; [exact HFc|now apply IH|].
  intros e1 e2 H1 H2. destruct HTc as [HB HE].
  assert (E2 := HB e1 H1). assert (E1 := keys_all_in _ _ e1 HE H1). cbn [fst] in E2.
  assert (HG : all_gt (fst e1) (cleaves ch)).
  { eapply tagged_gt; [exact E1|exact E2|exact HT|]. rewrite Forall_map in HS2. exact HS2. }
  unfold all_gt in HG. rewrite Forall_forall in HG. now apply HG.
Qed.

Lemma WFg_leaves_sorted n : forall pi, WFg n pi -> StronglySorted entries_lt (leaves n).
Proof.
  induction n as [id k v|c p ch IH] using node_ind2; intros pi H.
  - cbn [leaves]. repeat constructor.
  - rewrite leaves_inode. apply (cleaves_sorted _ _ (WFg_tagged _ _ _ _ H)).
    + apply WFg_inode in H. tauto.
    + rewrite Forall_forall in *. intros bc Hin. exact (IH _ Hin _ (proj2 (WFg_child _ _ _ _ _ H Hin))).
Qed.

Lemma prefix_mismatch_g k c p ch pi sl pb kb : WFg (Inode c p ch) pi -> ext pi k ->
  sl < length p -> firstn sl p = firstn sl (skipn (length pi) k) ->
  nth_error p sl = Some pb -> nth_error k (length pi + sl) = Some kb -> pb <> kb ->
  ((kb < pb)%Z /\ all_gt k (cleaves ch) \/ (pb < kb)%Z /\ all_lt k (cleaves ch)).
Proof.
  intros HWF Hext Hsl Hfn Hx Hy Hne.
  assert (Hk' : pi ++ skipn (length pi) k = k).
  { unfold ext in Hext. rewrite <- Hext at 1. apply firstn_skipn. }
  remember (skipn (length pi) k) as rem eqn:Erem.
  assert (Hlq : length (pi ++ firstn sl p) = length pi + sl).
  { rewrite app_length, firstn_length. lia. }
  assert (Hqk : ext (pi ++ firstn sl p) k).
  { apply ext_iff. exists (skipn sl rem). rewrite <- app_assoc, Hfn, firstn_skipn. now symmetry. }
  assert (Hyk : nth_error k (length (pi ++ firstn sl p)) = Some kb) by (now rewrite Hlq).
  assert (He : forall e, In e (cleaves ch) ->
             ext (pi ++ firstn sl p) (fst e) /\ nth_error (fst e) (length (pi ++ firstn sl p)) = Some pb).
  { intros e Hin. rewrite <- (leaves_inode c p ch) in Hin. destruct (WFg_shorter _ _ _ _ _ HWF Hin) as [H2 _]. split.
    - apply (ext_app_l _ (skipn sl p)). now rewrite <- app_assoc, firstn_skipn.
    - apply ext_iff in H2. destruct H2 as [s ->]. rewrite Hlq, <- !app_assoc.
      rewrite nth_error_app2 by lia. replace (length pi + sl - length pi) with sl by lia.
      rewrite nth_error_app1 by lia. exact Hx. }
  destruct (Z.lt_total kb pb) as [Hlt|[Heq|Hgt]]; [left|congruence|right]; (split; [assumption|]).
  - apply Forall_forall. intros e Hin. destruct (He e Hin) as [E1 E2].
    eapply lex_lt_diff; [exact Hqk|exact E1|exact Hyk|exact E2|exact Hlt].
  - apply Forall_forall. intros e Hin. destruct (He e Hin) as [E1 E2].
    eapply lex_lt_diff; [exact E1|exact Hqk|exact E2|exact Hyk|exact Hgt].
Qed.

Lemma WFg_ne n : forall pi, WFg n pi -> ne n.
Proof.
  induction n as [id k v|c p ch IH] using node_ind2; intros pi H; [constructor|].
  apply WFg_inode in H. destruct H as (_ & _ & _ & Hsz & H). constructor.
  - intros ->. destruct c; cbn in Hsz; lia.
  - unfold WFgch in H. rewrite Forall_forall in *. intros bc Hin. exact (IH _ Hin _ (proj2 (H _ Hin))).
Qed.

Lemma seek_spec k (fwd : bool) : forall fuel n pi stk,
  WFg n pi -> ext pi k -> pfk k (leaves n) -> length k - length pi < fuel -> stack_ok stk ->
  exists r, seek_go true fuel n k (length pi) fwd stk = Ok r /\
    Pos fwd (fst r) (dirl fwd (filter (side fwd k) (leaves n)) ++ rest fwd stk).
Proof.
  induction fuel as [|f IH]; intros n pi stk HWF Hext Hpf Hfuel Hs; [lia|].
  destruct n as [id lk v|c p ch].
  - (* the leaf is the position if it is on the scan side of the key, else one step further *)
    assert (Hs' : stack_ok (FL (Leaf id lk v) :: stk)) by (constructor; [exact I|exact Hs]).
    assert (Hstep := it_step_spec fwd _ Hs'). cbn [rest] in Hstep. destruct Hstep as (s' & E' & HP').
    assert (Hstay := Pos_leaf fwd id lk v stk Hs).
    cbn [seek_go leaves filter]. destruct fwd; cbn [side]; unfold ge_key, le_key; cbn [fst]; unfold lex_leb.
    + destruct (lex_compare k lk).
      * eexists. split; [reflexivity|exact Hstay].
      * eexists. split; [reflexivity|exact Hstay].
      * rewrite E'. eexists. split; [reflexivity|exact HP'].
    + rewrite (lex_compare_antisym k lk). destruct (lex_compare k lk); cbn [CompOpp].
      * eexists. split; [reflexivity|exact Hstay].
      * rewrite E'. eexists. split; [reflexivity|exact HP'].
      * eexists. split; [reflexivity|exact Hstay].
  - assert (Hn : ne (Inode c p ch)) by (eapply WFg_ne; exact HWF).
    destruct (inode_prelude_g k c p ch pi HWF Hext Hpf)
      as (Hlt & [(Hsl & _ & Hfn & pb & kb & Hpb & Hkb & Hne)|(Hsl & b & Hb & Hext' & _)]);
      cbn [seek_go]; rewrite Hlt.
    + (* the key leaves the prefix: the subtree is wholly on one side *)
      assert (Hc := prefix_mismatch_g k c p ch pi _ pb kb HWF Hext Hsl Hfn Hpb Hkb Hne).
      rewrite <- (leaves_inode c p ch) in Hc.
      apply Nat.ltb_lt in Hsl. rewrite Hsl.
      unfold byte_at. rewrite nth_error_skipn', Hkb, Hpb. cbn [bind].
      destruct Hc as [[Hc Hall]|[Hc Hall]].
      * apply Z.ltb_lt in Hc. rewrite Hc. destruct fwd.
        -- destruct (seek_enter true k _ stk Hn Hs Hall) as (s & E & HP).
           rewrite E. cbn [bind]. eexists. split; [reflexivity|exact HP].
        -- destruct (seek_skip false k _ stk Hn Hs Hall) as (s & s' & E & E' & HP).
           rewrite E. cbn [bind]. rewrite E'. cbn [bind]. eexists. split; [reflexivity|exact HP].
      * assert (Hc' : (kb <? pb)%Z = false) by (apply Z.ltb_ge; lia). rewrite Hc'. destruct fwd.
        -- destruct (seek_skip true k _ stk Hn Hs Hall) as (s & s' & E & E' & HP).
           rewrite E. cbn [bind]. rewrite E'. cbn [bind]. eexists. split; [reflexivity|exact HP].
        -- destruct (seek_enter false k _ stk Hn Hs Hall) as (s & E & HP).
           rewrite E. cbn [bind]. eexists. split; [reflexivity|exact HP].
    + rewrite Hsl, Nat.ltb_irrefl. unfold byte_at. rewrite Hb. cbn [bind].
      assert (HS : keys_sorted ch) by (apply WFg_inode in HWF; tauto).
      assert (HT := WFg_tagged _ _ _ _ HWF).
      assert (Hq : ext (pi ++ p) k). { rewrite app_assoc in Hext'. now apply ext_app_l in Hext'. }
      assert (Hbq : nth_error k (length (pi ++ p)) = Some b) by (now rewrite app_length).
      destruct (find_child ch b 0) as [[i c']|] eqn:Hfc.
      * (* the child with the key's byte: its siblings lie on either side *)
        destruct (descend_child k c p ch pi b i c' HWF Hpf Hb Hfc) as (l1 & l2 & -> & -> & Hc' & Hpf' & Hlen & Hfu).
        destruct (keys_sorted_split _ _ _ _ HS) as [Hl1 Hl2].
        destruct (tagged_split _ _ _ _ HT) as (HT1 & _ & HT2).
        rewrite <- Hlen.
        destruct (IH c' (pi ++ p ++ [b]) (FI (Inode c p (l1 ++ (b, c') :: l2)) (length l1) :: stk)
                    Hc' Hext' Hpf' (Hfu _ Hfuel)) as (r & E & HP).
        { apply stack_ok_push; [exact Hn| |exact Hs]. cbn [children]. rewrite app_length. cbn [length]. lia. }
        exists r. split; [exact E|]. apply (Pos_child fwd k c p l1 (b, c') l2 _ stk HP).
        -- eapply tagged_lt; eassumption.
        -- eapply tagged_gt; eassumption.
      * (* no such child: the nearest sibling beyond the key's byte, if any *)
        assert (Hnin := find_child_none _ _ _ Hfc). destruct fwd.
        -- destruct (gte_idx ch b 0) as [j|] eqn:Hg.
           ++ apply gte_idx_some in Hg. destruct Hg as (l1 & x & c' & l2 & -> & -> & Hl1 & Hbx). cbn [Nat.add].
              rewrite nth_error_mid.
              assert (Hxb : (b < x)%Z).
              { assert (x <> b); [|lia]. intros ->. apply Hnin. rewrite map_app. apply in_or_app. right. now left. }
              destruct (keys_sorted_split _ _ _ _ HS) as [_ Hl2].
              destruct (tagged_split _ _ _ _ HT) as (HT1 & HT2 & _).
              assert (HG : all_gt k (cleaves ((x, c') :: l2))).
              { eapply tagged_gt; [exact Hq|exact Hbq|exact HT2|]. constructor; [exact Hxb|].
                eapply Forall_impl; [|exact Hl2]. cbn beta. intros; lia. }
              rewrite cleaves_cons in HG. apply Forall_app in HG. destruct HG as [HG1 HG2].
              destruct (enter_child true k c p l1 x c' l2 stk Hn Hs) as (s & E & HP);
                [eapply tagged_lt; eassumption|exact HG2|exact HG1|].
              rewrite E. cbn [bind]. eexists. split; [reflexivity|exact HP].
           ++ apply gte_idx_none in Hg.
              destruct (it_step_spec true stk Hs) as (s & E & HP). rewrite E. cbn [bind].
              eexists. split; [reflexivity|]. cbn [fst]. rewrite leaves_inode.
              rewrite (filter_behind true k (cleaves ch)) by (eapply tagged_lt; eassumption). exact HP.
        -- destruct (lte_idx ch b 0) as [j|] eqn:Hg.
           ++ apply lte_idx_some in Hg. destruct Hg as (l1 & x & c' & l2 & -> & -> & Hbx & Hl2). cbn [Nat.add].
              rewrite nth_error_mid.
              assert (Hxb : (x < b)%Z).
              { assert (x <> b); [|lia]. intros ->. apply Hnin. rewrite map_app. apply in_or_app. right. now left. }
              destruct (keys_sorted_split _ _ _ _ HS) as [Hl1 _].
              destruct (tagged_split _ _ _ _ HT) as (HT1 & HT2 & HT3).
              assert (HL : all_lt k (cleaves (l1 ++ [(x, c')]))).
              { eapply tagged_lt; [exact Hq|exact Hbq| |].
                - apply Forall_app. split; [exact HT1|].
                  apply Forall_cons_iff in HT2. constructor; [exact (proj1 HT2)|constructor].
                - apply Forall_app. split; [|repeat constructor; exact Hxb].
                  eapply Forall_impl; [|exact Hl1]. cbn beta. intros; lia. }
              rewrite cleaves_app in HL. apply Forall_app in HL. destruct HL as [HL1 HL2].
              change (cleaves [(x, c')]) with (leaves c' ++ []) in HL2. rewrite app_nil_r in HL2.
              destruct (enter_child false k c p l1 x c' l2 stk Hn Hs) as (s & E & HP);
                [exact HL1|eapply tagged_gt; eassumption|exact HL2|].
              rewrite E. cbn [bind]. eexists. split; [reflexivity|exact HP].
           ++ apply lte_idx_none in Hg.
              destruct (it_step_spec false stk Hs) as (s & E & HP). rewrite E. cbn [bind].
              eexists. split; [reflexivity|]. cbn [fst]. rewrite leaves_inode.
              rewrite (filter_behind false k (cleaves ch)) by (eapply tagged_gt; eassumption). exact HP.
Qed.

Theorem db_leaves_sorted_g : forall d, db_WFg d -> StronglySorted entries_lt (db_leaves d).
Proof. intros d. apply (db_WFg_lift (StronglySorted entries_lt)); [constructor|]. intros n. apply WFg_leaves_sorted. Qed.

Lemma db_scan_dir (fwd : bool) d h : db_WFg d ->
  db_scan d fwd h = Ok (take_until h (kvs (dirl fwd (db_leaves d)))).
Proof.
  unfold db_WFg, db_scan, db_leaves. destruct (root d) as [n|].
  - intros H. destruct fwd; exact (scan_whole _ h n (WFg_ne _ _ H)).
  - intros _. destruct fwd; cbn; now rewrite take_until_nil.
Qed.

Lemma db_seek_scan (fwd : bool) d a stop h : db_WFg d -> pfk a (db_leaves d) ->
  (r <- it_seek (root d) a fwd ;; scan_loop (scan_fuel (root d)) fwd stop h (fst r) []) =
  Ok (take_until h (kvs (twhile (fun e => negb (stop (fst e))) (dirl fwd (filter (side fwd a) (db_leaves d)))))).
Proof.
  unfold db_WFg, db_leaves. destruct (root d) as [n|].
  - intros HWF Ha.
    destruct (seek_spec a fwd (fuel_for a) n [] [] HWF (ext_nil a) Ha (fuel_ok_g a) (Forall_nil _)) as (r & E & HP).
    cbn [length] in E. cbn [rest] in HP. rewrite app_nil_r in HP. cbn [it_seek]. rewrite E. cbn [bind].
    apply (scan_loop_from fwd stop h n _ _ HP). rewrite dirl_length. apply filter_len.
  - intros _ _. destruct fwd; cbn; now rewrite take_until_nil.
Qed.

Theorem db_scan_correct_g : forall d h, db_WFg d ->
  db_scan d true h = Ok (take_until h (kvs (db_leaves d))) /\
  db_scan d false h = Ok (take_until h (rev (kvs (db_leaves d)))).
Proof.
  intros d h HWF. split; [exact (db_scan_dir true d h HWF)|].
  rewrite <- kvs_rev. exact (db_scan_dir false d h HWF).
Qed.

Theorem db_scan_from_correct_g : forall d k h, db_WFg d -> pfk k (db_leaves d) ->
  db_scan_from d k true h = Ok (take_until h (kvs (filter (ge_key k) (db_leaves d)))) /\
  db_scan_from d k false h = Ok (take_until h (rev (kvs (filter (le_key k) (db_leaves d))))).
Proof.
  intros d k h HWF Hk. unfold db_scan_from. split.
  - rewrite (db_seek_scan true d k _ h HWF Hk). now rewrite twhile_all.
  - rewrite (db_seek_scan false d k _ h HWF Hk). now rewrite twhile_all, <- kvs_rev.
Qed.

Theorem db_scan_range_correct_g : forall d a b h, db_WFg d -> pfk a (db_leaves d) ->
  db_scan_range d a b h =
  Ok (match lex_compare a b with
      | Eq => []
      | Lt => take_until h (kvs (filter (in_fwd_range a b) (db_leaves d)))
      | Gt => take_until h (rev (kvs (filter (in_rev_range a b) (db_leaves d))))
      end).
Proof.
  intros d a b h HWF Ha. assert (HS := db_leaves_sorted_g d HWF). unfold db_scan_range.
  destruct (lex_compare a b) eqn:Eab; [reflexivity| |].
  - rewrite (db_seek_scan true d a _ h HWF Ha). cbn [dirl side].
    rewrite (twhile_filter_sorted entries_lt).
    + rewrite filter_filter'. do 3 f_equal. apply filter_ext. intros e.
      unfold in_fwd_range, ge_key. now rewrite negb_involutive.
    + apply SSorted_filter, HS.
    + intros x y Hxy Hy. rewrite negb_involutive in *. unfold lex_ltb in *.
      destruct (lex_compare (fst y) b) eqn:E1; try discriminate.
      assert (H : lex_lt (fst x) b) by (eapply lex_lt_trans; [exact Hxy|exact E1]).
      unfold lex_lt in H. now rewrite H.
  - rewrite (db_seek_scan false d a _ h HWF Ha). cbn [dirl side].
    rewrite (twhile_filter_sorted (fun x y => entries_lt y x)).
    + rewrite filter_rev', filter_filter', kvs_rev. do 4 f_equal. apply filter_ext. intros e.
      unfold in_rev_range, le_key. rewrite andb_comm. f_equal. apply negb_leb.
    + apply SSorted_rev, SSorted_filter, HS.
    + intros x y Hxy Hy. rewrite negb_leb in *. unfold lex_ltb in *.
      destruct (lex_compare b (fst y)) eqn:E1; try discriminate.
      assert (H : lex_lt b (fst x)) by (eapply lex_lt_trans; [exact E1|exact Hxy]).
      unfold lex_lt in H. now rewrite H.
Qed.
