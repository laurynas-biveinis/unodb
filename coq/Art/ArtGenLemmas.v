(** Prefix-free keys of variable length: reflection of the boolean hypotheses,
    the structural consequences of [WFg], and the fixed-length invariant
    [WF L] as [WFg] on keys that all have length [L]. *)
From Coq Require Import List ZArith Bool Lia Sorted Permutation.
From Unodb Require Import Base.Lex Art.ArtModel Art.ArtSpec Art.ArtInv Art.ArtLemmas
  Art.ArtGenInv.
Import ListNotations.

Lemma is_byteb_iff b : is_byteb b = true <-> is_byte_z b.
Proof. unfold is_byteb, is_byte_z. rewrite andb_true_iff, Z.leb_le, Z.ltb_lt. tauto. Qed.

Lemma bytesb_iff k : bytesb k = true <-> Forall is_byte_z k.
Proof.
  unfold bytesb. rewrite forallb_forall, Forall_forall.
  split; intros H x Hx; apply is_byteb_iff; auto.
Qed.

Lemma is_prefix_iff a b : is_prefix a b = true <-> is_pre a b.
Proof. rewrite is_prefix_spec. symmetry. apply ext_iff. Qed.

Lemma pfree2_iff a b : pfree2 a b = true <-> pf2 a b.
Proof.
  unfold pfree2, pf2. rewrite orb_true_iff, negb_true_iff, orb_false_iff, lex_eqb_eq.
  split.
  - intros [->|[H1 H2]] H; [reflexivity|].
    destruct H as [H|H]; apply is_prefix_iff in H; congruence.
  - intros H. destruct (is_prefix a b) eqn:E1.
    + left. apply H. left. now apply is_prefix_iff.
    + destruct (is_prefix b a) eqn:E2.
      * left. apply H. right. now apply is_prefix_iff.
      * right. split; reflexivity.
Qed.

Lemma pfreeb_iff k l : pfreeb k l = true <-> pfk k l.
Proof.
  unfold pfreeb, pfk. rewrite forallb_forall, Forall_forall.
  split; intros H x Hx; apply pfree2_iff; auto.
Qed.

Lemma pf2_pf_pair a b : pf2 a b <-> pf_pair a b.
Proof. unfold pf2, pf_pair. rewrite <- !is_prefix_iff. tauto. Qed.

Lemma pf2_refl a : pf2 a a.
Proof. intros _. reflexivity. Qed.

Lemma pf2_sym a b : pf2 a b -> pf2 b a.
Proof. rewrite !pf2_pf_pair. apply pf_pair_sym. Qed.

Lemma pf2_same_length a b : length a = length b -> pf2 a b.
Proof. intros HL. now apply pf2_pf_pair, pf_pair_same_length. Qed.

Lemma is_pre_skipn pi k k' : ext pi k -> ext pi k' ->
  is_pre (skipn (length pi) k) (skipn (length pi) k') -> is_pre k k'.
Proof.
  intros Hk [s' ->]%ext_iff. rewrite skipn_app, Nat.sub_diag, skipn_all. cbn [skipn app].
  apply (ext_app_skipn pi k s' Hk).
Qed.

Lemma pf2_remainders pi k lk : ext pi k -> ext pi lk -> k <> lk -> pf2 k lk ->
  ~ ext (skipn (length pi) lk) (skipn (length pi) k) /\ ~ ext (skipn (length pi) k) (skipn (length pi) lk).
Proof.
  intros Hext Hextl Hne Hpf. split; intros H; apply Hne, Hpf.
  - right. exact (is_pre_skipn pi lk k Hextl Hext H).
  - left. exact (is_pre_skipn pi k lk Hext Hextl H).
Qed.

(** The leaf case of [insert_fits]: the dispatch bytes that the comparison of
    at most [prefix_capacity] bytes arrives at differ. *)
Definition leaf_split_guard (lk k : list Z) (depth : nat) : bool :=
  let rem := skipn depth k in
  let k1rem := skipn depth lk in
  let n' := common_pad prefix_capacity k1rem rem in
  match nth_error lk (n' + depth), nth_error rem n' with
  | Some b1, Some b2 => negb (Z.eqb b1 b2)
  | _, _ => true
  end.

Definition WFgch (pi p : list Z) (ch : list (Z * node)) : Prop :=
  Forall (fun bc => is_byte_z (fst bc) /\ WFg (snd bc) (pi ++ p ++ [fst bc])) ch.

Lemma WFg_inode c p ch pi :
  WFg (Inode c p ch) pi <->
  length p <= prefix_capacity /\ Forall is_byte_z p /\
  keys_sorted ch /\ (min_size c <= length ch <= cap c) /\ WFgch pi p ch.
Proof.
  cbn [WFg].
  assert (H : (fix wfl (l : list (Z * node)) : Prop :=
         match l with
         | [] => True
         | (b, c') :: l' => is_byte_z b /\ WFg c' (pi ++ p ++ [b]) /\ wfl l'
         end) ch <-> WFgch pi p ch).
  { unfold WFgch. induction ch as [|[b c'] ch IH].
    - split; [constructor|trivial].
    - rewrite Forall_cons_iff. cbn [fst snd]. rewrite <- IH. tauto. }
  rewrite H. tauto.
Qed.

Lemma WFg_leaf id k v pi : WFg (Leaf id k v) pi <-> Forall is_byte_z k /\ ext pi k.
Proof. reflexivity. Qed.

Global Opaque WFg.

Lemma two_children_WFg pi pre b1 c1 b2 c2 :
  length pre <= prefix_capacity -> Forall is_byte_z pre -> b1 <> b2 -> is_byte_z b1 -> is_byte_z b2 ->
  WFg c1 (pi ++ pre ++ [b1]) -> WFg c2 (pi ++ pre ++ [b2]) ->
  WFg (Inode C4 pre (two_children b1 c1 b2 c2)) pi.
Proof.
  intros. apply WFg_inode. rewrite two_children_length. repeat split; try assumption; try (cbn; lia).
  - now apply two_children_sorted.
  - apply two_children_Forall; now split.
Qed.

Lemma WFg_child c p ch pi bc : WFg (Inode c p ch) pi -> In bc ch ->
  is_byte_z (fst bc) /\ WFg (snd bc) (pi ++ p ++ [fst bc]).
Proof.
  intros H Hin. apply WFg_inode in H. destruct H as (_ & _ & _ & _ & H).
  unfold WFgch in H. rewrite Forall_forall in H. exact (H _ Hin).
Qed.

Lemma WFg_prefix_fits c p ch pi : WFg (Inode c p ch) pi -> length p <= prefix_capacity.
Proof. intros H. apply WFg_inode in H. tauto. Qed.

Lemma child_of_WFg c p l1 b c' l2 pi :
  WFg (Inode c p (l1 ++ (b, c') :: l2)) pi -> is_byte_z b /\ WFg c' (pi ++ p ++ [b]).
Proof. intros H. apply (WFg_child _ _ _ _ (b, c') H), in_elt. Qed.

Lemma WFg_leaves n : forall pi e, WFg n pi -> In e (leaves n) -> Forall is_byte_z (fst e) /\ ext pi (fst e).
Proof.
  induction n as [id k v|c p ch IH] using node_ind2; intros pi e H He.
  - apply WFg_leaf in H. destruct He as [<-|[]]. exact H.
  - rewrite leaves_inode in He. apply in_cleaves in He. destruct He as (bc & Hin & He).
    rewrite Forall_forall in IH.
    destruct (IH _ Hin _ e (proj2 (WFg_child _ _ _ _ _ H Hin)) He) as [H1 H2].
    split; [exact H1|]. now apply ext_app_l in H2.
Qed.

Lemma WFg_tags c p ch pi : WFg (Inode c p ch) pi -> Forall (byte_tag (length pi + length p)) ch.
Proof.
  intros H. apply Forall_forall. intros bc Hin e He.
  destruct (WFg_leaves _ _ e (proj2 (WFg_child _ _ _ _ _ H Hin)) He) as [_ H2].
  rewrite app_assoc in H2. apply ext_snoc_inv in H2. rewrite app_length in H2. tauto.
Qed.

Lemma WFg_shorter c p ch pi e : WFg (Inode c p ch) pi -> In e (leaves (Inode c p ch)) ->
  ext (pi ++ p) (fst e) /\ length pi + length p < length (fst e).
Proof.
  intros H He. rewrite leaves_inode in He. apply in_cleaves in He. destruct He as (bc & Hin & He).
  destruct (WFg_leaves _ _ e (proj2 (WFg_child _ _ _ _ _ H Hin)) He) as [_ H3]. split.
  - rewrite app_assoc in H3. now apply ext_app_l in H3.
  - apply ext_length in H3. rewrite !app_length in H3. cbn [length] in H3. lia.
Qed.

Lemma WFg_nodup n : forall pi, WFg n pi -> NoDup (map fst (leaves n)).
Proof.
  induction n as [id k v|c p ch IH] using node_ind2; intros pi H.
  - cbn. repeat constructor. intros [].
  - rewrite leaves_inode. apply (tags_nodup _ _ (WFg_tags _ _ _ _ H)).
    + apply ssorted_nodup. apply WFg_inode in H. tauto.
    + rewrite Forall_forall in *. intros bc Hin. exact (IH _ Hin _ (proj2 (WFg_child _ _ _ _ _ H Hin))).
Qed.

Lemma WFg_nonempty n : forall pi, WFg n pi -> leaves n <> [].
Proof.
  induction n as [id k v|c p ch IH] using node_ind2; intros pi H.
  - discriminate.
  - destruct ch as [|[b c'] ch].
    { apply WFg_inode in H. destruct H as (_ & _ & _ & Hsz & _). destruct c; cbn in Hsz; lia. }
    apply Forall_cons_iff in IH. destruct IH as [IH _].
    rewrite leaves_inode, cleaves_cons. intros HE. apply app_eq_nil in HE.
    exact (IH _ (proj2 (WFg_child _ _ _ _ (b, c') H (or_introl eq_refl))) (proj1 HE)).
Qed.

Lemma WFg_inner_key c p ch pi : WFg (Inode c p ch) pi ->
  exists e, In e (leaves (Inode c p ch)) /\ ext (pi ++ p) (fst e) /\ length pi + length p < length (fst e).
Proof.
  intros H. destruct (leaves (Inode c p ch)) as [|e ls] eqn:E; [exfalso; exact (WFg_nonempty _ _ H E)|].
  assert (Hin : In e (leaves (Inode c p ch))) by (rewrite E; now left). rewrite <- E.
  exists e. split; [exact Hin|]. exact (WFg_shorter _ _ _ _ _ H Hin).
Qed.

Lemma nodup_fst_fun {A B} (l : list (A * B)) a x y :
  NoDup (map fst l) -> In (a, x) l -> In (a, y) l -> x = y.
Proof.
  induction l as [|[a' z] l IH]; cbn [map fst In]; intros ND H1 H2; [contradiction|].
  apply NoDup_cons_iff in ND. destruct ND as [Hn ND].
  destruct H1 as [H1|H1]; destruct H2 as [H2|H2].
  - congruence.
  - injection H1 as -> ->. exfalso. apply Hn. change a with (fst (a, y)). now apply in_map.
  - injection H2 as -> ->. exfalso. apply Hn. change a with (fst (a, x)). now apply in_map.
  - now apply IH.
Qed.

Lemma WFg_prefix_eq n : forall pi e1 e2, WFg n pi -> In e1 (leaves n) -> In e2 (leaves n) ->
  is_pre (fst e1) (fst e2) -> fst e1 = fst e2.
Proof.
  induction n as [id k v|c p ch IH] using node_ind2; intros pi e1 e2 H H1 H2 Hpre.
  - cbn [leaves In] in H1, H2. destruct H1 as [<-|[]]. destruct H2 as [<-|[]]. reflexivity.
  - assert (HT := WFg_tags _ _ _ _ H). rewrite leaves_inode in H1, H2. apply in_cleaves in H1, H2.
    destruct H1 as ([b1 c1] & Hin1 & H1). destruct H2 as ([b2 c2] & Hin2 & H2). cbn [snd] in *.
    rewrite Forall_forall in HT.
    assert (T1 := HT _ Hin1 e1 H1). assert (T2 := HT _ Hin2 e2 H2). cbn [fst snd] in T1, T2.
    assert (Hb : b1 = b2).
    { apply ext_iff in Hpre. destruct Hpre as [t Ht]. rewrite Ht in T2.
      rewrite nth_error_app1 in T2 by (apply nth_error_Some; congruence). congruence. }
    subst b2.
    assert (HS : NoDup (map fst ch)) by (apply ssorted_nodup; apply WFg_inode in H; tauto).
    assert (c1 = c2) by (eapply nodup_fst_fun; eassumption).
    subst c2. rewrite Forall_forall in IH.
    exact (IH _ Hin1 _ e1 e2 (proj2 (WFg_child _ _ _ _ _ H Hin1)) H1 H2 Hpre).
Qed.

Lemma WFg_pairwise n pi e1 e2 : WFg n pi -> In e1 (leaves n) -> In e2 (leaves n) ->
  pf2 (fst e1) (fst e2).
Proof.
  intros H H1 H2 [Hp|Hp].
  - eapply WFg_prefix_eq; eassumption.
  - symmetry. eapply WFg_prefix_eq; eassumption.
Qed.

Lemma db_WFg_lift (P : list entry -> Prop) d :
  P [] -> (forall n, WFg n [] -> P (leaves n)) -> db_WFg d -> P (db_leaves d).
Proof. unfold db_WFg, db_leaves. intros H0 H. destruct (root d); [apply H|intros _; exact H0]. Qed.

Lemma spec_state_keys P : forall ops s, keys_all P (fst s) ->
  Forall (fun o => forall k, op_key o = Some k -> P k) ops -> keys_all P (fst (spec_state s ops)).
Proof.
  induction ops as [|o ops IH]; intros s Hs Hops; [exact Hs|]. cbn [spec_state].
  apply Forall_cons_iff in Hops. destruct Hops as [Ho Hops]. apply IH; [|exact Hops]. now apply spec_step_keys.
Qed.

Lemma WF_iff L n : forall pi, WF L n pi <-> WFg n pi /\ keys_all (fun k => length k = L) (leaves n).
Proof.
  induction n as [id k v|c p ch IH] using node_ind2; intros pi.
  - rewrite WF_leaf, WFg_leaf. unfold key_ok, keys_all. cbn [leaves]. rewrite Forall_cons_iff. cbn [fst].
    assert (Forall (fun e : entry => length (fst e) = L) [] <-> True) by (split; [trivial|constructor]). tauto.
  - split.
    + intros H. apply WF_inode in H. destruct H as (_ & H2 & H3 & HS & Hsz & Hch).
      assert (HF : Forall (fun bc => (is_byte_z (fst bc) /\ WFg (snd bc) (pi ++ p ++ [fst bc])) /\
                                      keys_all (fun k => length k = L) (leaves (snd bc))) ch).
      { unfold WFch in Hch. rewrite Forall_forall in *. intros bc Hin. destruct (Hch _ Hin) as [Hb Hc].
        apply (IH _ Hin) in Hc. tauto. }
      apply Forall_and_inv in HF. destruct HF as [HW HK].
      split; [apply WFg_inode; now repeat split|].
      rewrite leaves_inode. unfold keys_all, cleaves. apply Forall_flat_map. exact HK.
    + intros [H HK].
      (* path + prefix is shorter than some key below, which has length L *)
      assert (Hlen : length pi + length p < L).
      { destruct (WFg_inner_key _ _ _ _ H) as (e & Hin & _ & Hs). now rewrite <- (keys_all_in _ _ _ HK Hin). }
      apply WFg_inode in H. destruct H as (H2 & H3 & HS & Hsz & Hch). rewrite leaves_inode in HK.
      apply WF_inode. repeat split; try assumption; try lia.
      unfold WFch, WFgch in *. rewrite Forall_forall in *. intros bc Hin. destruct (Hch _ Hin) as [Hb Hc].
      split; [exact Hb|]. apply (IH _ Hin). split; [exact Hc|]. exact (keys_all_child _ _ _ HK Hin).
Qed.

Lemma WF_WFg L n pi : WF L n pi -> WFg n pi.
Proof. intros H. now apply WF_iff in H. Qed.

Lemma WF_keys L n pi : WF L n pi -> keys_all (key_ok L) (leaves n).
Proof.
  intros H. apply WF_iff in H. destruct H as [H HL]. apply Forall_forall. intros e He.
  split; [exact (keys_all_in _ _ _ HL He)|exact (proj1 (WFg_leaves _ _ e H He))].
Qed.

Lemma key_ok_pfk L k l : key_ok L k -> keys_all (key_ok L) l -> pfk k l.
Proof. intros [Hk _]. apply keys_all_impl. intros k' [Hk' _]. apply pf2_same_length. congruence. Qed.

Lemma WF_pfk L n pi k : WF L n pi -> key_ok L k -> pfk k (leaves n).
Proof. intros H Hk. eapply key_ok_pfk; [exact Hk|]. eapply WF_keys; exact H. Qed.

Lemma db_WF_iff L d : db_WF L d <-> db_WFg d /\ keys_all (fun k => length k = L) (db_leaves d).
Proof.
  unfold db_WF, db_WFg, db_leaves. destruct (root d); [apply WF_iff|].
  split; [intros _; split; [exact I|constructor]|trivial].
Qed.

Lemma db_WF_keys L d : db_WF L d -> keys_all (key_ok L) (db_leaves d).
Proof. unfold db_WF, db_leaves. destruct (root d); [apply WF_keys|constructor]. Qed.
