(** The ART model on variable-length, prefix-free byte-string keys:
    get / insert / remove below the root keep [WFg] and act on the leaf list
    as on a finite map, provided the key is prefix-free w.r.t. the stored
    keys and the step does not hit the 7-byte prefix capacity. *)
From Coq Require Import List ZArith Bool Lia Sorted Permutation.
From Unodb Require Import Base.Lex Art.ArtModel Art.ArtSpec Art.ArtInv Art.ArtLemmas
  Art.ArtGenInv Art.ArtGenLemmas.
Import ListNotations.

Lemma key_not_inside_prefix k pi p k0 : ext pi k -> ext (pi ++ p) k0 -> length pi + length p < length k0 ->
  pf2 k k0 -> ~ ext (skipn (length pi) k) p.
Proof.
  intros Hext Hext0 Hlen Hpf Hpre.
  assert (Hk : ext k (pi ++ p)) by (now apply ext_app_skipn).
  assert (HE : k = k0) by (apply Hpf; left; exact (ext_trans _ _ _ Hk Hext0)).
  subst k0. apply ext_length in Hk. rewrite app_length in Hk. lia.
Qed.

Lemma inode_prelude_g k c p ch pi :
  WFg (Inode c p ch) pi -> ext pi k -> pfk k (leaves (Inode c p ch)) ->
  (length k <? length pi) = false /\
  ((shared_len p (skipn (length pi) k) < length p /\
    assoc k (leaves (Inode c p ch)) = None /\
    firstn (shared_len p (skipn (length pi) k)) p =
      firstn (shared_len p (skipn (length pi) k)) (skipn (length pi) k) /\
    exists sb nb, nth_error p (shared_len p (skipn (length pi) k)) = Some sb /\
                  nth_error k (length pi + shared_len p (skipn (length pi) k)) = Some nb /\
                  sb <> nb)
   \/
   (shared_len p (skipn (length pi) k) = length p /\
    exists b, nth_error k (length pi + length p) = Some b /\
              ext (pi ++ p ++ [b]) k /\
              assoc k (leaves (Inode c p ch)) =
              match find_child ch b 0 with Some (_, c') => assoc k (leaves c') | None => None end)).
Proof.
  intros HWF Hext Hpf.
  split; [apply Nat.ltb_ge; exact (ext_length _ _ Hext)|].
  destruct (WFg_inner_key _ _ _ _ HWF) as (e0 & Hin0 & Hext0 & Hlen0).
  assert (HC := key_not_inside_prefix k pi p _ Hext Hext0 Hlen0 (keys_all_in _ _ _ Hpf Hin0)).
  destruct (ext_dec p (skipn (length pi) k)) as [Hep|Hnp].
  - right. split; [apply shared_len_full; [now apply ext_length|exact Hep]|].
    destruct (nth_error k (length pi + length p)) as [b|] eqn:Hb.
    2:{ (* the remainder would be the prefix itself *)
        exfalso. apply HC. apply nth_error_None in Hb.
        rewrite (ext_same_length _ _ Hep); [apply ext_refl|].
        apply ext_length in Hep. rewrite skipn_length in *. lia. }
    apply (ext_skipn pi p k Hext) in Hep.
    exists b. split; [reflexivity|]. split.
    + rewrite app_assoc. apply ext_snoc; [exact Hep|]. now rewrite app_length.
    + rewrite leaves_inode. apply (assoc_children _ _ _ _ (WFg_tags _ _ _ _ HWF) Hb).
      apply ssorted_nodup. apply WFg_inode in HWF. tauto.
  - left. destruct (shared_len_pf p _ Hnp HC) as (H1 & H2 & x & y & Hx & Hy & Hxy).
    split; [exact H1|]. split.
    { apply assoc_none. intros HI. apply in_map_iff in HI. destruct HI as (e & <- & He).
      destruct (WFg_shorter _ _ _ _ _ HWF He) as [H5 _]. apply Hnp. now apply (ext_skipn pi p _ Hext). }
    split; [exact H2|]. exists x, y. split; [exact Hx|]. split; [|exact Hxy].
    now rewrite nth_error_skipn' in Hy.
Qed.

Lemma descend_child k c p ch pi b i c' :
  WFg (Inode c p ch) pi -> pfk k (leaves (Inode c p ch)) ->
  nth_error k (length pi + length p) = Some b -> find_child ch b 0 = Some (i, c') ->
  exists l1 l2, ch = l1 ++ (b, c') :: l2 /\ i = length l1 /\
    WFg c' (pi ++ p ++ [b]) /\ pfk k (leaves c') /\
    length (pi ++ p ++ [b]) = S (length pi + length p) /\
    forall f, length k - length pi < S f -> length k - length (pi ++ p ++ [b]) < f.
Proof.
  intros HWF Hpf Hb Hfc. apply find_child_some in Hfc. destruct Hfc as (l1 & l2 & -> & ->).
  exists l1, l2. split; [reflexivity|]. split; [reflexivity|].
  split; [exact (proj2 (child_of_WFg _ _ _ _ _ _ _ HWF))|].
  split; [rewrite leaves_inode in Hpf; exact (keys_all_mid _ _ _ _ Hpf)|].
  assert (Hd : length pi + length p < length k) by (apply nth_error_Some; congruence).
  rewrite !app_length. cbn [length]. split; lia.
Qed.

Lemma get_go_correct_g k : forall fuel n pi,
  WFg n pi -> ext pi k -> pfk k (leaves n) -> length k - length pi < fuel ->
  get_go fuel n k (length pi) = Ok (assoc k (leaves n)).
Proof.
  induction fuel as [|f IH]; intros n pi HWF Hext Hpf Hfuel; [lia|].
  destruct n as [id lk v|c p ch].
  - cbn [get_go leaves assoc]. unfold lex_eqb. now destruct (lex_compare k lk).
  - destruct (inode_prelude_g k c p ch pi HWF Hext Hpf)
      as (Hlt & [(Hsl & Hass & _)|(Hsl & b & Hb & Hext' & Hass)]); rewrite Hass; cbn [get_go]; rewrite Hlt.
    + apply Nat.ltb_lt in Hsl. now rewrite Hsl.
    + rewrite Hsl, Nat.ltb_irrefl. unfold byte_at. rewrite Hb. cbn [bind].
      destruct (find_child ch b 0) as [[i c']|] eqn:Hfc; [|reflexivity].
      destruct (descend_child k c p ch pi b i c' HWF Hpf Hb Hfc) as (_ & _ & _ & _ & Hc' & Hpf' & Hlen & Hfu).
      rewrite <- Hlen. exact (IH c' _ Hc' Hext' Hpf' (Hfu _ Hfuel)).
Qed.

Lemma replace_child_WFg c p l1 b c' c'' l2 pi :
  WFg (Inode c p (l1 ++ (b, c') :: l2)) pi -> WFg c'' (pi ++ p ++ [b]) ->
  WFg (Inode c p (l1 ++ (b, c'') :: l2)) pi.
Proof.
  intros HWF Hc''. apply WFg_inode in HWF. destruct HWF as (H2 & H3 & HS & Hsz & Hch).
  apply WFg_inode. repeat split; try assumption.
  - unfold keys_sorted in *. rewrite map_app in *. exact HS.
  - rewrite app_length in *. cbn [length] in *. lia.
  - rewrite app_length in *. cbn [length] in *. lia.
  - unfold WFgch in *. apply Forall_app in Hch. destruct Hch as [Ha Hb]. apply Forall_app. split; [exact Ha|].
    apply Forall_cons_iff in Hb. destruct Hb as [[Hb1 _] Hb2]. constructor; [|exact Hb2].
    cbn [fst snd] in *. split; assumption.
Qed.

Lemma remove_child_WFg c c2 p l1 x l2 pi :
  WFg (Inode c p (l1 ++ x :: l2)) pi -> min_size c2 <= length (l1 ++ l2) <= cap c2 ->
  WFg (Inode c2 p (l1 ++ l2)) pi.
Proof.
  intros HWF Hsz2. apply WFg_inode in HWF. destruct HWF as (H2 & H3 & HS & Hsz & Hch).
  apply WFg_inode. repeat split; try assumption; try lia.
  - unfold keys_sorted in *. rewrite map_app in *. cbn [map] in HS. eapply ssorted_remove_mid; exact HS.
  - unfold WFgch in *. apply Forall_app in Hch. destruct Hch as [Ha Hb]. apply Forall_app. split; [exact Ha|].
    now apply Forall_cons_iff in Hb.
Qed.

Lemma add_child_WFg c c2 p ch pi b id k v :
  WFg (Inode c p ch) pi -> ~ In b (map fst ch) -> is_byte_z b -> Forall is_byte_z k ->
  ext (pi ++ p ++ [b]) k -> min_size c2 <= S (length ch) <= cap c2 ->
  WFg (Inode c2 p (insert_at (insert_pos c ch b) (b, Leaf id k v) ch)) pi.
Proof.
  intros HWF Hn Hb Hk Hext Hsz2. apply WFg_inode in HWF. destruct HWF as (H2 & H3 & HS & Hsz & Hch).
  apply WFg_inode. rewrite insert_at_length. repeat split; try assumption; try lia.
  - now apply insert_pos_sorted.
  - unfold WFgch in *. apply insert_at_Forall; [|exact Hch]. cbn [fst snd].
    split; [exact Hb|]. apply WFg_leaf. split; assumption.
Qed.

Lemma room_for_absent_byte c p ch pi b :
  WFg (Inode c p ch) pi -> ~ In b (map fst ch) -> is_byte_z b -> S (length ch) <= 256.
Proof.
  intros HWF Hn Hb. apply WFg_inode in HWF. destruct HWF as (_ & _ & HS & _ & Hch).
  rewrite <- (insert_at_length (first_ge ch b) (b, Leaf 0%Z [] []) ch).
  apply keys_sorted_length.
  - now apply first_ge_sorted.
  - apply insert_at_Forall; [exact Hb|]. unfold WFgch in Hch. eapply Forall_impl; [|exact Hch].
    cbn beta. tauto.
Qed.

Lemma leaf_split_ok_g pi lid lk lv id k v :
  Forall is_byte_z lk -> ext pi lk -> Forall is_byte_z k -> ext pi k -> k <> lk -> pf2 k lk ->
  leaf_split_guard lk k (length pi) = true ->
  exists n',
    (if (length k <? length pi) then Err Oob else
     if (length lk <? length pi) then Err Oob else
     let rem := skipn (length pi) k in
     let k1rem := skipn (length pi) lk in
     let n' := common_pad prefix_capacity k1rem rem in
     let pre := firstn n' (pad8 k1rem) in
     b1 <- byte_at lk (n' + length pi) ;;
     b2 <- byte_at rem n' ;;
     Ok (Some (Inode C4 pre (two_children b1 (Leaf lid lk lv) b2 (Leaf id k v)), ELeafSplit)))
    = Ok (Some (n', ELeafSplit)) /\
    WFg n' pi /\ Permutation (leaves n') ((k, (id, v)) :: leaves (Leaf lid lk lv)).
Proof.
  intros HlkB Hextl HkB Hext Hne Hpf Hfits. unfold leaf_split_guard in Hfits.
  rewrite (proj2 (Nat.ltb_ge _ _) (ext_length _ _ Hext)), (proj2 (Nat.ltb_ge _ _) (ext_length _ _ Hextl)).
  cbv zeta in *.
  set (rem := skipn (length pi) k) in *. set (k1rem := skipn (length pi) lk) in *.
  destruct (pf2_remainders pi k lk Hext Hextl Hne Hpf) as [HP1 HP2].
  destruct (common_pad_pf prefix_capacity k1rem rem HP1 HP2) as (Hn1 & Hn2 & Hfst & _).
  assert (Hn7 := common_pad_le prefix_capacity k1rem rem).
  set (n' := common_pad prefix_capacity k1rem rem) in *.
  destruct (nth_error k1rem n') as [x|] eqn:Hx; [|apply nth_error_None in Hx; lia].
  destruct (nth_error rem n') as [y|] eqn:Hy; [|apply nth_error_None in Hy; lia].
  assert (Hx' : nth_error lk (length pi + n') = Some x) by (rewrite <- nth_error_skipn'; exact Hx).
  assert (Hy' : nth_error k (length pi + n') = Some y) by (rewrite <- nth_error_skipn'; exact Hy).
  rewrite (Nat.add_comm n' (length pi)), Hx' in Hfits.
  assert (Hxy : x <> y) by (intros ->; rewrite Z.eqb_refl in Hfits; discriminate).
  unfold byte_at. rewrite (Nat.add_comm n' (length pi)), Hx', Hy. cbn [bind].
  rewrite firstn_pad8 by lia.
  eexists. split; [reflexivity|]. split.
  - apply two_children_WFg.
    + rewrite firstn_length. lia.
    + apply Forall_firstn', Forall_skipn', HlkB.
    + exact Hxy.
    + exact (Forall_nth_error _ lk _ x HlkB Hx').
    + exact (Forall_nth_error _ k _ y HkB Hy').
    + apply WFg_leaf. split; [exact HlkB|]. apply ext_path; [exact Hextl|lia|reflexivity|exact Hx'].
    + apply WFg_leaf. split; [exact HkB|]. apply ext_path; [exact Hext|lia|exact Hfst|exact Hy'].
  - etransitivity; [apply two_children_leaves|]. apply perm_swap.
Qed.

Lemma prefix_split_ok_g pi c p ch id k v sl sb nb :
  WFg (Inode c p ch) pi -> Forall is_byte_z k -> ext pi k ->
  sl < length p -> firstn sl p = firstn sl (skipn (length pi) k) ->
  nth_error p sl = Some sb -> nth_error k (length pi + sl) = Some nb -> sb <> nb ->
  WFg (Inode C4 (firstn sl p) (two_children sb (Inode c (skipn (S sl) p) ch) nb (Leaf id k v))) pi /\
  Permutation
    (leaves (Inode C4 (firstn sl p) (two_children sb (Inode c (skipn (S sl) p) ch) nb (Leaf id k v))))
    ((k, (id, v)) :: leaves (Inode c p ch)).
Proof.
  intros HWF HkB Hext Hsl Hfst Hsb Hnb Hne.
  apply WFg_inode in HWF. destruct HWF as (Hp7 & HpB & HS & Hsz & Hch).
  assert (Hp : p = firstn sl p ++ sb :: skipn (S sl) p) by (now apply nth_error_decomp).
  split.
  - apply two_children_WFg.
    + rewrite firstn_length. lia.
    + now apply Forall_firstn'.
    + exact Hne.
    + exact (Forall_nth_error _ p _ sb HpB Hsb).
    + exact (Forall_nth_error _ k _ nb HkB Hnb).
    + (* the old node, its prefix cut behind the split byte *)
      apply WFg_inode. rewrite skipn_length. repeat split; try assumption; try lia.
      * now apply Forall_skipn'.
      * unfold WFgch in *. eapply Forall_impl; [|exact Hch]. cbn beta. intros [b c'] [Hb Hc']. cbn [fst snd] in *.
        split; [exact Hb|].
        replace ((pi ++ firstn sl p ++ [sb]) ++ skipn (S sl) p ++ [b]) with (pi ++ p ++ [b]); [exact Hc'|].
        rewrite Hp at 1. rewrite <- !app_assoc. reflexivity.
    + apply WFg_leaf. split; [exact HkB|]. apply ext_path; [exact Hext|lia|exact Hfst|exact Hnb].
  - etransitivity; [apply two_children_leaves|]. rewrite !leaves_inode. cbn [leaves].
    symmetry. apply Permutation_cons_append.
Qed.

Lemma insert_go_correct_g k v id : Forall is_byte_z k -> forall fuel n pi,
  WFg n pi -> ext pi k -> pfk k (leaves n) -> length k - length pi < fuel ->
  insert_fits fuel n k (length pi) = true ->
  match assoc k (leaves n) with
  | Some _ => insert_go fuel n k v id (length pi) = Ok None
  | None => exists n' e, insert_go fuel n k v id (length pi) = Ok (Some (n', e)) /\ WFg n' pi /\
                         Permutation (leaves n') ((k, (id, v)) :: leaves n)
  end.
Proof.
  intros HkB. induction fuel as [|f IH]; intros n pi HWF Hext Hpf Hfuel Hfits; [lia|].
  destruct n as [lid lk lv|c p ch].
  - apply WFg_leaf in HWF. destruct HWF as [Hlk Hextl].
    destruct (list_Z_eq_dec k lk) as [->|Hne].
    + cbn [leaves assoc insert_go]. rewrite lex_eqb_refl, lex_compare_refl. reflexivity.
    + assert (Hcmp : lex_compare k lk <> Eq) by (now rewrite lex_compare_eq).
      assert (Hpf2 : pf2 k lk) by (apply (keys_all_in _ _ (lk, (lid, lv)) Hpf); now left).
      cbn [insert_fits] in Hfits. cbn [leaves assoc insert_go]. rewrite (lex_eqb_neq _ _ Hne).
      destruct (leaf_split_ok_g pi lid lk lv id k v Hlk Hextl HkB Hext Hne Hpf2) as (n' & H1 & H2 & H3).
      { destruct (lex_compare k lk); [congruence|exact Hfits|exact Hfits]. }
      exists n', ELeafSplit. split; [|split; assumption].
      destruct (lex_compare k lk); [congruence|exact H1|exact H1].
  - destruct (inode_prelude_g k c p ch pi HWF Hext Hpf)
      as (Hlt & [(Hsl & Hass & Hfst & sb & nb & Hsb & Hnb & Hsn)|(Hsl & b & Hb & Hext' & Hass)]);
      rewrite Hass; cbn [insert_go]; rewrite Hlt.
    + destruct (prefix_split_ok_g pi c p ch id k v _ sb nb HWF HkB Hext Hsl Hfst Hsb Hnb Hsn) as (HWF' & HP).
      eexists _, _. split; [|split; [exact HWF'|exact HP]].
      apply Nat.ltb_lt in Hsl. rewrite Hsl. unfold byte_at. rewrite Hsb, Hnb. reflexivity.
    + cbn [insert_fits] in Hfits. rewrite Hsl, Nat.ltb_irrefl, Hb in Hfits.
      rewrite Hsl, Nat.ltb_irrefl. unfold byte_at. rewrite Hb. cbn [bind].
      destruct (find_child ch b 0) as [[i c']|] eqn:Hfc.
      * destruct (descend_child k c p ch pi b i c' HWF Hpf Hb Hfc) as (l1 & l2 & -> & -> & Hc' & Hpf' & Hlen & Hfu).
        rewrite <- Hlen in *.
        specialize (IH c' (pi ++ p ++ [b]) Hc' Hext' Hpf' (Hfu _ Hfuel) Hfits).
        destruct (assoc k (leaves c')) as [x|].
        -- rewrite IH. reflexivity.
        -- destruct IH as (c'' & e & Hins & HWF'' & HP). rewrite Hins. cbn [bind].
           eexists _, _. split; [reflexivity|]. rewrite replace_nth_mid. split.
           ++ eapply replace_child_WFg; eassumption.
           ++ rewrite !leaves_inode. now apply cleaves_mid_perm.
      * (* a new leaf for byte [b], in the class the new fan-out requires *)
        apply find_child_none in Hfc.
        assert (Hbyte : is_byte_z b) by exact (Forall_nth_error is_byte_z k _ b HkB Hb).
        assert (Hperm : forall c2, Permutation (leaves (Inode c2 p (insert_at (insert_pos c ch b) (b, Leaf id k v) ch)))
                                      ((k, (id, v)) :: leaves (Inode c p ch))).
        { intros c2. rewrite !leaves_inode. etransitivity; [apply cleaves_perm, insert_at_perm|]. reflexivity. }
        assert (Hsz : min_size c <= length ch <= cap c) by (apply WFg_inode in HWF; tauto).
        assert (Hcls := add_child_size c (length ch) Hsz (room_for_absent_byte _ _ _ _ _ HWF Hfc Hbyte)).
        destruct (cls_eqb c C256); [|destruct (Nat.eqb (length ch) (cap c))];
          (eexists _, _; split; [reflexivity|]; split; [|apply Hperm]);
          eapply add_child_WFg; eassumption.
Qed.

Lemma prepend_WFg pi p sb s : is_byte_z sb -> Forall is_byte_z p ->
  match s with Inode _ p3 _ => length p + 1 + length p3 <= prefix_capacity | Leaf _ _ _ => True end ->
  WFg s (pi ++ p ++ [sb]) -> WFg (prepend_prefix p sb s) pi.
Proof.
  intros Hsb Hp Hfit HWF. destruct s as [id k v|c p3 ch]; cbn [prepend_prefix].
  - apply WFg_leaf in HWF. apply WFg_leaf. destruct HWF as [H1 H2]. split; [exact H1|].
    now apply ext_app_l in H2.
  - apply WFg_inode in HWF. destruct HWF as (H2 & H3 & HS & Hsz & Hch).
    apply WFg_inode. rewrite app_length. cbn [length].
    repeat split; try assumption; try lia.
    + apply Forall_app. split; [exact Hp|]. constructor; assumption.
    + unfold WFgch in *. eapply Forall_impl; [|exact Hch]. cbn beta. intros [b c'] [Hb Hc']. cbn [fst snd] in *.
      split; [exact Hb|].
      replace (pi ++ (p ++ sb :: p3) ++ [b]) with ((pi ++ p ++ [sb]) ++ p3 ++ [b]); [exact Hc'|].
      rewrite <- !app_assoc. reflexivity.
Qed.

Lemma remove_go_correct_g k : forall fuel c p ch pi,
  WFg (Inode c p ch) pi -> ext pi k -> pfk k (leaves (Inode c p ch)) -> length k - length pi < fuel ->
  remove_fits fuel (Inode c p ch) k (length pi) = true ->
  match assoc k (leaves (Inode c p ch)) with
  | None => remove_go fuel (Inode c p ch) k (length pi) = Ok RmNotFound
  | Some x => exists n' e, remove_go fuel (Inode c p ch) k (length pi) = Ok (RmReplaced n' e) /\
                           WFg n' pi /\ Permutation (leaves (Inode c p ch)) ((k, x) :: leaves n')
  end.
Proof.
  induction fuel as [|f IH]; intros c p ch pi HWF Hext Hpf Hfuel Hfits; [lia|].
  destruct (inode_prelude_g k c p ch pi HWF Hext Hpf)
    as (Hlt & [(Hsl & Hass & _)|(Hsl & b & Hb & Hext' & Hass)]); rewrite Hass; cbn [remove_go]; rewrite Hlt.
  - apply Nat.ltb_lt in Hsl. now rewrite Hsl.
  - cbn [remove_fits] in Hfits. rewrite Hsl, Nat.ltb_irrefl, Hb in Hfits.
    rewrite Hsl, Nat.ltb_irrefl. unfold byte_at. rewrite Hb. cbn [bind].
    destruct (find_child ch b 0) as [[i c']|] eqn:Hfc; [|reflexivity].
    destruct (descend_child k c p ch pi b i c' HWF Hpf Hb Hfc) as (l1 & l2 & -> & -> & Hc' & Hpf' & Hlen & Hfu).
    destruct c' as [lid lk lv|c3 p3 ch3].
    + change (assoc k (leaves (Leaf lid lk lv))) with (if lex_eqb k lk then Some (lid, lv) else @None (Z * list Z)).
      unfold lex_eqb. destruct (lex_compare k lk) eqn:Hcmp; try reflexivity.
      apply lex_compare_eq in Hcmp. subst lk.
      assert (HWFi := HWF). apply WFg_inode in HWFi. destruct HWFi as (_ & HpB & _ & Hsz & _).
      assert (HP : forall c2, Permutation (leaves (Inode c p (l1 ++ (b, Leaf lid k lv) :: l2)))
                                ((k, (lid, lv)) :: leaves (Inode c2 p (l1 ++ l2)))).
      { intros c2. rewrite !leaves_inode, cleaves_mid, cleaves_app. cbn [snd leaves app].
        symmetry. apply Permutation_middle. }
      rewrite app_length in Hsz. cbn [length] in Hsz.
      destruct (Nat.eqb_spec (length (l1 ++ (b, Leaf lid k lv) :: l2)) (min_size c)) as [Hmin|Hmin]; [destruct c|].
      1:{ (* collapse: the one other child takes the node's place *)
        destruct (two_elements_other _ _ _ Hmin) as ([sb s] & Hnth & Hrest).
        rewrite Hnth in Hfits |- *. eexists _, _. split; [reflexivity|]. split.
        - assert (Hin : In (sb, s) (l1 ++ (b, Leaf lid k lv) :: l2)).
          { apply in_app_iff. assert (H : In (sb, s) (l1 ++ l2)) by (rewrite Hrest; now left).
            apply in_app_iff in H. destruct H; [now left|right; now right]. }
          destruct (WFg_child _ _ _ _ _ HWF Hin) as [Hsb Hs]. cbn [fst snd] in *.
          apply prepend_WFg; try assumption.
          destruct s as [|c3 p3 ch3]; [exact I|]. apply Nat.leb_le. exact Hfits.
        - etransitivity; [apply (HP C4)|]. rewrite Hrest, leaves_inode, prepend_leaves.
          unfold cleaves. cbn [flat_map snd]. now rewrite app_nil_r. }
      (* otherwise the leaf goes; at the minimum size the node shrinks to the smaller class *)
      all: eexists _, _; (split; [reflexivity|]); rewrite remove_nth_mid; (split; [|apply HP]);
        (eapply remove_child_WFg; [exact HWF|]); rewrite app_length in *; cbn [length min_size smaller cap] in *; lia.
    + rewrite <- Hlen in *.
      specialize (IH c3 p3 ch3 (pi ++ p ++ [b]) Hc' Hext' Hpf' (Hfu _ Hfuel) Hfits).
      destruct (assoc k (leaves (Inode c3 p3 ch3))) as [x|].
      * destruct IH as (c'' & e & Hrm & HWF'' & HP). rewrite Hrm. cbn [bind].
        eexists _, _. split; [reflexivity|]. rewrite replace_nth_mid. split.
        -- eapply replace_child_WFg; eassumption.
        -- rewrite !leaves_inode. now apply cleaves_mid_perm.
      * rewrite IH. reflexivity.
Qed.
