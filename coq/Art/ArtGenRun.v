(** Prefix-free keys of variable length: the index object and operation
    histories.  Under [hist_ok] (prefix-freedom + capacity guard at every
    step) the model run equals the specification run and keeps [WFg]. *)
From Coq Require Import List ZArith Bool Lia Sorted Permutation.
From Unodb Require Import Base.Lex Art.ArtModel Art.ArtSpec Art.ArtInv Art.ArtLemmas
  Art.ArtGenInv Art.ArtGenLemmas Art.ArtGenProofs.
Import ListNotations.

Lemma fuel_ok_g k : length k - length (@nil Z) < fuel_for k.
Proof. unfold fuel_for. cbn [length]. lia. Qed.

Lemma db_get_correct_g d k : db_WFg d -> pfk k (db_leaves d) -> db_get d k = Ok (assoc k (db_leaves d)).
Proof.
  unfold db_WFg, db_get, db_leaves. intros HWF Hpf. destruct (root d) as [n|]; [|reflexivity].
  exact (get_go_correct_g k (fuel_for k) n [] HWF (ext_nil k) Hpf (fuel_ok_g k)).
Qed.

Lemma db_leaves_nodup_g d : db_WFg d -> keys_nodup (db_leaves d).
Proof. apply (db_WFg_lift keys_nodup); [constructor|]. intros n. apply WFg_nodup. Qed.

Lemma db_leaves_pairwise_g d e1 e2 : db_WFg d -> In e1 (db_leaves d) -> In e2 (db_leaves d) ->
  pf2 (fst e1) (fst e2).
Proof.
  apply (db_WFg_lift (fun l => In e1 l -> In e2 l -> pf2 (fst e1) (fst e2))); [intros []|].
  intros n. apply WFg_pairwise.
Qed.

Definition Invg (d : db) (s : sstate) : Prop :=
  db_WFg d /\ next_id d = snd s /\ forall k, assoc k (fst s) = assoc k (db_leaves d).

Lemma Invg_empty d l nid : Invg d (l, nid) ->
  match l with [] => true | _ => false end = db_empty d.
Proof.
  intros (HWF & _ & Hagree). cbn [fst snd] in *.
  unfold db_empty, db_WFg, db_leaves in *. destruct (root d) as [n|].
  - destruct l as [|[k x] l]; [|reflexivity]. exfalso.
    assert (Hne := WFg_nonempty _ _ HWF). destruct (leaves n) as [|[k x] ls] eqn:E; [congruence|].
    specialize (Hagree k). cbn [assoc] in Hagree. rewrite lex_eqb_refl in Hagree. discriminate.
  - destruct l as [|[k x] l]; [reflexivity|]. exfalso.
    specialize (Hagree k). cbn [assoc] in Hagree. rewrite lex_eqb_refl in Hagree. discriminate.
Qed.

Lemma op_pf_key d s o k : Invg d s -> op_pf s o = true -> op_key o = Some k ->
  Forall is_byte_z k /\ pfk k (db_leaves d).
Proof.
  intros (_ & _ & Hagree) Hop Ek. unfold op_pf in Hop. rewrite Ek in Hop.
  apply andb_true_iff in Hop. destruct Hop as [H1 H2]. split; [now apply bytesb_iff|].
  apply pfreeb_iff in H2. exact (keys_all_transfer _ _ _ Hagree H2).
Qed.

Lemma step_correct_g sz d s o : Invg d s -> op_pf s o = true -> op_fits d o = true ->
  snd (step sz d o) = snd (spec_step s o) /\ Invg (fst (step sz d o)) (fst (spec_step s o)).
Proof.
  intros HInv Hop Hfits. assert (Hk := fun k => op_pf_key d s o k HInv Hop). destruct s as [l nid].
  assert (HInv' := HInv). destruct HInv' as (HWF & Hnid & Hagree). cbn [fst snd] in *.
  destruct o as [k|k v|k| |]; cbn [op_key] in Hk.
  - destruct (Hk k eq_refl) as [HkB Hpf].
    cbn [step spec_step fst snd]. rewrite (db_get_correct_g d k HWF Hpf), (Hagree k). split; [reflexivity|exact HInv].
  - destruct (Hk k eq_refl) as [HkB Hpf].
    cbn [step spec_step]. rewrite (Hagree k). unfold db_insert, db_leaves, db_WFg, op_fits in *.
    destruct (root d) as [n|] eqn:Hroot.
    + assert (Hins := insert_go_correct_g k v (next_id d) HkB (fuel_for k) n [] HWF (ext_nil k) Hpf (fuel_ok_g k) Hfits).
      cbn [length] in Hins.
      destruct (assoc k (leaves n)) as [x|] eqn:Hass.
      * rewrite Hins. cbn [bind fst snd]. split; [reflexivity|]. exact HInv.
      * destruct Hins as (n' & e & Hins & HWF' & HP). rewrite Hins. cbn [bind fst snd]. split; [reflexivity|].
        unfold Invg, db_WFg, db_leaves. cbn [root next_id fst snd]. split; [exact HWF'|]. split; [lia|].
        intros k'. rewrite (assoc_perm_cons k _ _ _ (WFg_nodup _ _ HWF') HP k'). cbn [assoc].
        rewrite Hnid. now rewrite (Hagree k').
    + cbn [assoc fst snd]. split; [reflexivity|].
      unfold Invg, db_WFg, db_leaves. cbn [root next_id fst snd]. split.
      { apply WFg_leaf. split; [exact HkB|apply ext_nil]. }
      split; [lia|].
      intros k'. cbn [leaves assoc]. rewrite Hnid. now rewrite (Hagree k').
  - destruct (Hk k eq_refl) as [HkB Hpf].
    cbn [step spec_step]. rewrite (Hagree k). unfold db_remove, db_leaves, db_WFg, op_fits in *.
    destruct (root d) as [n|] eqn:Hroot.
    + destruct n as [lid lk lv|c p ch].
      * cbn [leaves assoc]. unfold lex_eqb. destruct (lex_compare k lk) eqn:Hcmp;
          try (cbn [fst snd]; split; [reflexivity|exact HInv]).
        apply lex_compare_eq in Hcmp. subst lk. cbn [fst snd]. split; [reflexivity|].
        unfold Invg, db_WFg, db_leaves. cbn [root next_id fst snd]. split; [exact I|]. split; [exact Hnid|].
        intros k'. rewrite assoc_sremove, (Hagree k'). cbn [leaves assoc].
        now destruct (lex_eqb k' k).
      * assert (Hget := get_go_correct_g k (fuel_for k) _ [] HWF (ext_nil k) Hpf (fuel_ok_g k)).
        cbn [length] in Hget. rewrite Hget. cbn [bind].
        assert (Hrm := remove_go_correct_g k (fuel_for k) c p ch [] HWF (ext_nil k) Hpf (fuel_ok_g k) Hfits).
        cbn [length] in Hrm.
        destruct (assoc k (leaves (Inode c p ch))) as [[xid xv]|] eqn:Hass.
        -- destruct Hrm as (n' & e & Hrm & HWF' & HP). rewrite Hrm. cbn [bind fst snd]. split; [reflexivity|].
           unfold Invg, db_WFg, db_leaves. cbn [root next_id fst snd]. split; [exact HWF'|]. split; [exact Hnid|].
           intros k'. rewrite assoc_sremove, (Hagree k').
           symmetry. exact (assoc_perm_remove k _ _ _ (WFg_nodup _ _ HWF) HP k').
        -- rewrite Hrm. cbn [bind fst snd]. split; [reflexivity|exact HInv].
    + cbn [assoc fst snd]. split; [reflexivity|exact HInv].
  - cbn [step spec_step fst snd]. split; [|exact HInv]. f_equal. symmetry. exact (Invg_empty d l nid HInv).
  - cbn [step spec_step fst snd]. split; [reflexivity|].
    unfold Invg, db_clear, db_WFg, db_leaves. cbn [root next_id fst snd].
    split; [exact I|]. split; [exact Hnid|]. reflexivity.
Qed.

Lemma Invg_init : Invg db0 ([], 0%Z).
Proof.
  unfold Invg, db0, db_WFg, db_leaves. cbn [root next_id fst snd].
  split; [exact I|]. split; reflexivity.
Qed.

Lemma run_correct_g sz : forall ops d s, Invg d s -> hist_ok sz d s ops = true ->
  run sz d ops = spec_run s ops /\ Invg (run_state sz d ops) (spec_state s ops).
Proof.
  induction ops as [|o ops IH]; intros d s HInv Hops.
  - split; [reflexivity|exact HInv].
  - cbn [hist_ok] in Hops. apply andb_true_iff in Hops. destruct Hops as [Ho Hops].
    apply andb_true_iff in Ho. destruct Ho as [Hpf Hfits].
    destruct (step_correct_g sz d s o HInv Hpf Hfits) as [Hout HInv'].
    cbn [run spec_run run_state spec_state].
    destruct (step sz d o) as [d' r]. destruct (spec_step s o) as [s' r']. cbn [fst snd] in *. subst r'.
    destruct (IH d' s' HInv' Hops) as [H1 H2]. split; [now f_equal|exact H2].
Qed.

Theorem run_refines_spec_g : forall sz ops, hist_ok sz db0 ([], 0%Z) ops = true ->
  run sz db0 ops = spec_run ([], 0%Z) ops.
Proof.
  intros sz ops Hops. exact (proj1 (run_correct_g sz ops db0 _ Invg_init Hops)).
Qed.

Theorem run_state_invariant_g : forall sz ops, hist_ok sz db0 ([], 0%Z) ops = true ->
  let d := run_state sz db0 ops in
  db_WFg d /\ keys_nodup (db_leaves d) /\
  (forall e1 e2, In e1 (db_leaves d) -> In e2 (db_leaves d) -> pf2 (fst e1) (fst e2)) /\
  (forall k, assoc k (fst (spec_state ([], 0%Z) ops)) = assoc k (db_leaves d)) /\
  (forall k, pfk k (db_leaves d) -> db_get d k = Ok (assoc k (db_leaves d))).
Proof.
  intros sz ops Hops d.
  destruct (proj2 (run_correct_g sz ops db0 _ Invg_init Hops)) as (HWF & _ & Hag).
  fold d in HWF, Hag. split; [exact HWF|]. split; [now apply db_leaves_nodup_g|].
  split; [intros e1 e2; now apply db_leaves_pairwise_g|]. split; [exact Hag|].
  intros k Hk. now apply db_get_correct_g.
Qed.

(** The capacity guard of [hist_ok] is needed.  [k1_ops]: two prefix-free
    keys sharing 9 bytes; the guard fails at the second insert and the model
    loses a key (known finding K1).  [collapse_ops]: every split fits, but
    removing [1;2;9] needs the prefix [1;2] ++ 3 ++ [4;5;6;7;8;9].  The
    model's [prepend_prefix] keeps all 9 bytes, more than a [key_prefix]
    holds; the C++ [key_prefix::prepend] asserts [length() + prefix1.length()
    < key_prefix_capacity] and in a release build shifts bytes out of the
    64-bit word. *)

Definition ex_sizes : sizes := {| sz_leaf := 11; sz4 := 48; sz16 := 160; sz48 := 672; sz256 := 2064 |}%Z.

Definition k1_ops : list op :=
  [OInsert [97;97;97;97;97;97;97;97;97;88] [1];
   OInsert [97;97;97;97;97;97;97;97;97;89] [2];
   OGet [97;97;97;97;97;97;97;97;97;88]]%Z.

Lemma k1_diverges :
  hist_pf ([], 0%Z) k1_ops = true /\ hist_ok ex_sizes db0 ([], 0%Z) k1_ops = false /\
  op_fits (run_state ex_sizes db0 (firstn 1 k1_ops)) (nth 1 k1_ops OEmpty) = false /\
  run ex_sizes db0 k1_ops <> spec_run ([], 0%Z) k1_ops.
Proof. vm_compute. repeat split; discriminate. Qed.

Definition collapse_ops : list op :=
  [OInsert [1;2;9] [1]; OInsert [1;2;3;4;5;6;7;8;9;1] [2]; OInsert [1;2;3;4;5;6;7;8;9;2] [3];
   OGet [1;2;3;4;5;6;7;8;9;1]; ORemove [1;2;9]]%Z.

Theorem collapse_overflow_refuted : exists sz ops,
  hist_pf ([], 0%Z) ops = true /\ hist_ok sz db0 ([], 0%Z) (removelast ops) = true /\
  op_fits (run_state sz db0 (removelast ops)) (last ops OEmpty) = false /\
  ~ db_WFg (run_state sz db0 ops).
Proof.
  exists ex_sizes, collapse_ops.
  assert (E : hist_pf ([], 0%Z) collapse_ops = true /\
              hist_ok ex_sizes db0 ([], 0%Z) (removelast collapse_ops) = true /\
              op_fits (run_state ex_sizes db0 (removelast collapse_ops)) (last collapse_ops OEmpty) = false /\
              exists c p ch, root (run_state ex_sizes db0 collapse_ops) = Some (Inode c p ch) /\ length p = 9).
  { vm_compute. repeat split. eexists _, _, _. split; reflexivity. }
  destruct E as (E1 & E2 & E3 & c & p & ch & E & HL). repeat split; try assumption.
  unfold db_WFg. rewrite E. intros H. apply WFg_inode in H. unfold prefix_capacity in H. lia.
Qed.

Theorem WFg_inner_shorter : forall c p ch pi e, WFg (Inode c p ch) pi -> In e (leaves (Inode c p ch)) ->
  firstn (length (pi ++ p)) (fst e) = pi ++ p /\ length pi + length p < length (fst e).
Proof. exact WFg_shorter. Qed.
