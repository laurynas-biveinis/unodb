(** Canonical shape: the class of an inner node is the one its fan-out
    requires, and two trees satisfying [WFg] below the same path and holding
    the same entries have the same shape. *)
From Coq Require Import List ZArith Bool Lia Sorted Permutation.
From Unodb Require Import Base.Lex Art.ArtModel Art.ArtSpec Art.ArtInv
  Art.ArtLemmas Art.ArtScanSpec Art.ArtGenInv Art.ArtGenLemmas.
Import ListNotations.

Theorem class_by_fanout_g : forall c p ch pi, WFg (Inode c p ch) pi ->
  c = (if (length ch <=? 4) then C4 else if (length ch <=? 16) then C16
       else if (length ch <=? 48) then C48 else C256) /\ (2 <= length ch <= 256).
Proof.
  intros c p ch pi H. apply WFg_inode in H. destruct H as (_ & _ & _ & Hsz & _).
  destruct c; cbn [min_size cap] in Hsz;
    destruct (Nat.leb_spec (length ch) 4); destruct (Nat.leb_spec (length ch) 16);
    destruct (Nat.leb_spec (length ch) 48); try (exfalso; lia); (split; [reflexivity|lia]).
Qed.

Lemma erase_inode c p ch :
  erase (Inode c p ch) = Inode c p (map (fun bc => (fst bc, erase (snd bc))) ch).
Proof.
  cbn [erase]. f_equal. induction ch as [|[b c'] ch IH]; cbn [map fst snd]; [reflexivity|now f_equal].
Qed.

Lemma kvs_app l1 l2 : kvs (l1 ++ l2) = kvs l1 ++ kvs l2.
Proof. unfold kvs. apply map_app. Qed.

Lemma kvs_keys l : map fst (kvs l) = map fst l.
Proof. unfold kvs. rewrite map_map. reflexivity. Qed.

Lemma kvs_nil_inv l : kvs l = [] -> l = [].
Proof. destruct l; [reflexivity|discriminate]. Qed.

Definition has_tag (d : nat) (b : Z) (kv : list Z * list Z) : bool :=
  match nth_error (fst kv) d with Some x => Z.eqb x b | None => false end.

Lemma filter_tag_true d b (l : list entry) :
  (forall e, In e l -> nth_error (fst e) d = Some b) -> filter (has_tag d b) (kvs l) = kvs l.
Proof.
  induction l as [|e l IH]; intros H; [reflexivity|].
  cbn [kvs map filter]. unfold has_tag at 1. cbn [fst]. rewrite (H e (or_introl eq_refl)), Z.eqb_refl.
  f_equal. apply IH. intros e' He'. apply H. now right.
Qed.

Lemma filter_tag_false d b (l : list entry) :
  (forall e, In e l -> exists x, nth_error (fst e) d = Some x /\ x <> b) -> filter (has_tag d b) (kvs l) = [].
Proof.
  induction l as [|e l IH]; intros H; [reflexivity|].
  cbn [kvs map filter]. unfold has_tag at 1. cbn [fst].
  destruct (H e (or_introl eq_refl)) as (x & -> & Hx).
  destruct (Z.eqb_spec x b); [contradiction|].
  apply IH. intros e' He'. apply H. now right.
Qed.

Lemma cleaves_tag_other d b ch : Forall (byte_tag d) ch -> ~ In b (map fst ch) ->
  forall e, In e (cleaves ch) -> exists x, nth_error (fst e) d = Some x /\ x <> b.
Proof.
  intros HT Hn e He. apply in_cleaves in He. destruct He as (bc & Hin & He).
  rewrite Forall_forall in HT. exists (fst bc). split; [exact (HT _ Hin e He)|].
  intros <-. apply Hn. now apply in_map.
Qed.

Definition same_child (a b : Z * node) : Prop :=
  fst a = fst b /\ kvs (leaves (snd a)) = kvs (leaves (snd b)).

Lemma children_determined d ch1 : forall ch2,
  Forall (byte_tag d) ch1 -> Forall (byte_tag d) ch2 ->
  NoDup (map fst ch1) -> NoDup (map fst ch2) ->
  Forall (fun bc => leaves (snd bc) <> []) ch1 -> Forall (fun bc => leaves (snd bc) <> []) ch2 ->
  kvs (cleaves ch1) = kvs (cleaves ch2) -> Forall2 same_child ch1 ch2.
Proof.
  induction ch1 as [|[b1 c1] r1 IH]; intros [|[b2 c2] r2] HT1 HT2 ND1 ND2 HN1 HN2 H.
  - constructor.
  - exfalso. apply Forall_cons_iff in HN2. destruct HN2 as [HN2 _]. cbn [snd] in HN2.
    unfold cleaves in H. cbn [flat_map snd] in H. symmetry in H. apply kvs_nil_inv in H.
    apply app_eq_nil in H. tauto.
  - exfalso. apply Forall_cons_iff in HN1. destruct HN1 as [HN1 _]. cbn [snd] in HN1.
    unfold cleaves in H. cbn [flat_map snd] in H. apply kvs_nil_inv in H.
    apply app_eq_nil in H. tauto.
  - apply Forall_cons_iff in HT1. destruct HT1 as [Ht1 HT1].
    apply Forall_cons_iff in HT2. destruct HT2 as [Ht2 HT2].
    apply Forall_cons_iff in HN1. destruct HN1 as [Hn1 HN1].
    apply Forall_cons_iff in HN2. destruct HN2 as [Hn2 HN2].
    cbn [map fst] in ND1, ND2. apply NoDup_cons_iff in ND1. destruct ND1 as [Hb1 ND1].
    apply NoDup_cons_iff in ND2. destruct ND2 as [Hb2 ND2].
    unfold byte_tag in Ht1, Ht2. cbn [fst snd] in *.
    unfold cleaves in H. cbn [flat_map snd] in H. fold (cleaves r1) in H. fold (cleaves r2) in H.
    rewrite !kvs_app in H.
    assert (Hb : b1 = b2).
    { destruct (leaves c1) as [|e1 l1] eqn:E1; [congruence|].
      destruct (leaves c2) as [|e2 l2] eqn:E2; [congruence|].
      cbn [kvs map app] in H. injection H as Hk _ _.
      assert (A1 := Ht1 e1 (or_introl eq_refl)). assert (A2 := Ht2 e2 (or_introl eq_refl)).
      rewrite Hk in A1. congruence. }
    subst b2.
    assert (Hc : kvs (leaves c1) = kvs (leaves c2)).
    { assert (HF := f_equal (filter (has_tag d b1)) H). rewrite !filter_app in HF.
      rewrite (filter_tag_true d b1 (leaves c1) Ht1), (filter_tag_true d b1 (leaves c2) Ht2) in HF.
      rewrite (filter_tag_false d b1 (cleaves r1) (cleaves_tag_other d b1 r1 HT1 Hb1)) in HF.
      rewrite (filter_tag_false d b1 (cleaves r2) (cleaves_tag_other d b1 r2 HT2 Hb2)) in HF.
      now rewrite !app_nil_r in HF. }
    constructor.
    + split; [reflexivity|exact Hc].
    + apply IH; try assumption. rewrite Hc in H. now apply app_inv_head in H.
Qed.

Lemma ext_nth pi p k i : ext (pi ++ p) k -> i < length p -> nth_error k (length pi + i) = nth_error p i.
Proof.
  intros [s ->]%ext_iff Hi. rewrite <- app_assoc. rewrite nth_error_app2 by lia.
  replace (length pi + i - length pi) with i by lia. now rewrite nth_error_app1.
Qed.

Lemma ext_same_key_length a b k : ext a k -> ext b k -> length a = length b -> a = b.
Proof. unfold ext. intros H1 H2 HL. rewrite HL in H1. congruence. Qed.

Lemma same_keys_in (l1 l2 : list entry) e : kvs l1 = kvs l2 -> In e l1 -> exists e2, In e2 l2 /\ fst e2 = fst e.
Proof.
  intros H He. assert (Hk : In (fst e) (map fst l2)).
  { rewrite <- kvs_keys, <- H, kvs_keys. now apply in_map. }
  apply in_map_iff in Hk. destruct Hk as (e2 & H1 & H2). now exists e2.
Qed.

Lemma Forall2_length' {A B} (R : A -> B -> Prop) l1 l2 : Forall2 R l1 l2 -> length l1 = length l2.
Proof. induction 1; cbn; congruence. Qed.

Lemma WFg_children_nonempty c p ch pi : WFg (Inode c p ch) pi -> Forall (fun bc => leaves (snd bc) <> []) ch.
Proof.
  intros H. apply Forall_forall. intros bc Hin. exact (WFg_nonempty _ _ (proj2 (WFg_child _ _ _ _ _ H Hin))).
Qed.

Lemma inode_two_diff_g c p ch pi : WFg (Inode c p ch) pi ->
  exists e e' b b', In e (cleaves ch) /\ In e' (cleaves ch) /\
    nth_error (fst e) (length pi + length p) = Some b /\
    nth_error (fst e') (length pi + length p) = Some b' /\ b <> b'.
Proof.
  intros H. assert (HT := WFg_tags _ _ _ _ H). assert (HN := WFg_children_nonempty _ _ _ _ H).
  apply WFg_inode in H. destruct H as (_ & _ & HS & Hsz & _).
  destruct ch as [|[b c1] [|[b' c2] r]]; try (exfalso; destruct c; cbn in Hsz; lia).
  apply Forall_cons_iff in HT. destruct HT as [Ht1 HT]. apply Forall_cons_iff in HT. destruct HT as [Ht2 _].
  apply Forall_cons_iff in HN. destruct HN as [Hn1 HN]. apply Forall_cons_iff in HN. destruct HN as [Hn2 _].
  unfold byte_tag in Ht1, Ht2. cbn [fst snd] in *.
  destruct (leaves c1) as [|e l1] eqn:E1; [congruence|].
  destruct (leaves c2) as [|e' l2] eqn:E2; [congruence|].
  exists e, e', b, b'. unfold cleaves. cbn [flat_map snd]. rewrite E1, E2.
  split; [now left|]. split; [apply in_or_app; right; now left|].
  split; [apply Ht1; now left|]. split; [apply Ht2; now left|].
  unfold keys_sorted in HS. cbn [map fst] in HS. apply StronglySorted_inv in HS. destruct HS as [_ HS].
  apply Forall_cons_iff in HS. lia.
Qed.

Lemma prefix_len_le_g c p ch pi p2 : WFg (Inode c p ch) pi ->
  (forall e, In e (cleaves ch) -> ext (pi ++ p2) (fst e)) -> length p2 <= length p.
Proof.
  intros HWF H. destruct (Nat.le_gt_cases (length p2) (length p)) as [Hle|Hgt]; [exact Hle|exfalso].
  destruct (inode_two_diff_g _ _ _ _ HWF) as (e & e' & b & b' & He & He' & Hb & Hb' & Hne).
  rewrite (ext_nth pi p2 _ _ (H e He) Hgt) in Hb. rewrite (ext_nth pi p2 _ _ (H e' He') Hgt) in Hb'.
  congruence.
Qed.

Theorem shape_unique_g : forall t1 t2 pi, WFg t1 pi -> WFg t2 pi ->
  kvs (leaves t1) = kvs (leaves t2) -> erase t1 = erase t2.
Proof.
  intros t1 t2 pi. revert t2 pi.
  induction t1 as [id1 k1 v1|c1 p1 ch1 IH] using node_ind2; intros t2 pi H1 H2 HK.
  - destruct t2 as [id2 k2 v2|c2 p2 ch2].
    + cbn in HK. injection HK as -> ->. reflexivity.
    + exfalso. destruct (inode_two_diff_g _ _ _ _ H2) as (e & e' & b & b' & He & He' & Hb & Hb' & Hne).
      rewrite leaves_inode in HK. cbn [leaves kvs map] in HK.
      destruct (cleaves ch2) as [|x [|y l]]; try discriminate.
      destruct He as [<-|[]]. destruct He' as [<-|[]]. congruence.
  - destruct t2 as [id2 k2 v2|c2 p2 ch2].
    + exfalso. destruct (inode_two_diff_g _ _ _ _ H1) as (e & e' & b & b' & He & He' & Hb & Hb' & Hne).
      rewrite leaves_inode in HK. cbn [leaves kvs map] in HK.
      destruct (cleaves ch1) as [|x [|y l]]; try discriminate.
      destruct He as [<-|[]]. destruct He' as [<-|[]]. congruence.
    + rewrite !leaves_inode in HK.
      assert (W1 := H1). assert (W2 := H2).
      apply WFg_inode in W1. destruct W1 as (_ & _ & HS1 & _ & Hch1).
      apply WFg_inode in W2. destruct W2 as (_ & _ & HS2 & _ & Hch2).
      (* the prefixes agree *)
      assert (E12 : forall e, In e (cleaves ch1) -> ext (pi ++ p2) (fst e)).
      { intros e He. destruct (same_keys_in _ _ e HK He) as (e2 & He2 & <-).
        rewrite <- (leaves_inode c2 p2) in He2. exact (proj1 (WFg_shorter _ _ _ _ _ H2 He2)). }
      assert (E21 : forall e, In e (cleaves ch2) -> ext (pi ++ p1) (fst e)).
      { intros e He. destruct (same_keys_in _ _ e (eq_sym HK) He) as (e2 & He2 & <-).
        rewrite <- (leaves_inode c1 p1) in He2. exact (proj1 (WFg_shorter _ _ _ _ _ H1 He2)). }
      assert (Hlen : length p1 = length p2).
      { assert (A := prefix_len_le_g _ _ _ _ _ H1 E12). assert (B := prefix_len_le_g _ _ _ _ _ H2 E21). lia. }
      assert (Hp : p1 = p2).
      { destruct (inode_two_diff_g _ _ _ _ H1) as (e & _ & _ & _ & He & _).
        assert (B := E12 e He). rewrite <- (leaves_inode c1 p1) in He.
        assert (A := proj1 (WFg_shorter _ _ _ _ _ H1 He)).
        assert (C := ext_same_key_length _ _ _ A B ltac:(rewrite !app_length; lia)).
        now apply app_inv_head in C. }
      subst p2.
      (* the children agree *)
      assert (HF : Forall2 same_child ch1 ch2).
      { apply (children_determined (length pi + length p1)).
        - exact (WFg_tags _ _ _ _ H1).
        - exact (WFg_tags _ _ _ _ H2).
        - apply ssorted_nodup; exact HS1.
        - apply ssorted_nodup; exact HS2.
        - exact (WFg_children_nonempty _ _ _ _ H1).
        - exact (WFg_children_nonempty _ _ _ _ H2).
        - exact HK. }
      assert (Hc : c1 = c2).
      { rewrite (proj1 (class_by_fanout_g _ _ _ _ H1)), (proj1 (class_by_fanout_g _ _ _ _ H2)).
        now rewrite (Forall2_length' _ _ _ HF). }
      subst c2. rewrite !erase_inode. f_equal.
      clear H1 H2 HK HS1 HS2 E12 E21 Hlen.
      induction HF as [|[b1 n1] [b2 n2] r1 r2 [Hb Hk] HF IHF]; [reflexivity|].
      cbn [fst snd] in *. subst b2.
      apply Forall_cons_iff in IH. destruct IH as [IH1 IH]. cbn [snd] in IH1.
      unfold WFgch in Hch1, Hch2.
      apply Forall_cons_iff in Hch1. destruct Hch1 as [[_ Hn1] Hch1].
      apply Forall_cons_iff in Hch2. destruct Hch2 as [[_ Hn2] Hch2]. cbn [fst snd] in *.
      cbn [map fst snd]. f_equal.
      * f_equal. exact (IH1 n2 _ Hn1 Hn2 Hk).
      * apply IHF; assumption.
Qed.
