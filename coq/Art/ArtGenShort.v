(** A purely specification-level sufficient condition for the capacity guard:
    if every key of the history has at most 8 bytes (mixed lengths allowed),
    prefix-freedom alone implies [op_fits] at every step.  (Below a path of
    d bytes two prefix-free keys of at most 8 bytes share at most 7 - d bytes,
    and path + prefix + 1 + child prefix is shorter than a key of <= 8 bytes.) *)
From Coq Require Import List ZArith Bool Lia Sorted Permutation.
From Unodb Require Import Base.Lex Art.ArtModel Art.ArtSpec Art.ArtInv Art.ArtLemmas
  Art.ArtGenInv Art.ArtGenLemmas Art.ArtGenProofs Art.ArtGenRun.
Import ListNotations.

Definition short_key (k : list Z) : Prop := length k <= S prefix_capacity.
Definition op_short (o : op) : Prop := match op_key o with Some k => short_key k | None => True end.

Lemma insert_fits_short k : short_key k -> forall fuel n pi,
  WFg n pi -> ext pi k -> pfk k (leaves n) -> keys_all short_key (leaves n) ->
  insert_fits fuel n k (length pi) = true.
Proof.
  intros Hk. induction fuel as [|f IH]; intros n pi HWF Hext Hpf Hsh; [reflexivity|].
  destruct n as [lid lk lv|c p ch].
  - apply WFg_leaf in HWF. destruct HWF as [_ Hextl].
    cbn [insert_fits].
    destruct (list_Z_eq_dec k lk) as [->|Hne]; [now rewrite lex_compare_refl|].
    assert (Hpf2 : pf2 k lk) by (apply (keys_all_in _ _ (lk, (lid, lv)) Hpf); now left).
    assert (Hlk : short_key lk) by (apply (keys_all_in _ _ (lk, (lid, lv)) Hsh); now left).
    assert (Hg : leaf_split_guard lk k (length pi) = true).
    { unfold leaf_split_guard. cbv zeta. destruct (pf2_remainders pi k lk Hext Hextl Hne Hpf2) as [HP1 HP2].
      destruct (common_pad_pf prefix_capacity _ _ HP1 HP2) as (_ & _ & _ & H).
      destruct H as (x & y & Hx & Hy & Hxy).
      { right. left. unfold short_key in Hlk. rewrite skipn_length. lia. }
      rewrite nth_error_skipn' in Hx. rewrite Hy, (Nat.add_comm _ (length pi)), Hx.
      apply negb_true_iff. now apply Z.eqb_neq. }
    destruct (lex_compare k lk); [reflexivity|exact Hg|exact Hg].
  - cbn [insert_fits].
    destruct (shared_len p (skipn (length pi) k) <? length p) eqn:Hsl; [reflexivity|].
    destruct (nth_error k (length pi + length p)) as [b|] eqn:Hb; [|reflexivity].
    destruct (find_child ch b 0) as [[i c']|] eqn:Hfc; [|reflexivity].
    destruct (descend_child k c p ch pi b i c' HWF Hpf Hb Hfc) as (l1 & l2 & -> & _ & Hc' & Hpf' & Hlen & _).
    rewrite leaves_inode in Hsh. apply keys_all_mid in Hsh. rewrite <- Hlen.
    exact (IH c' _ Hc' (ext_descend k p pi b Hext Hsl Hb) Hpf' Hsh).
Qed.

Lemma remove_fits_short k : forall fuel n pi,
  WFg n pi -> ext pi k -> pfk k (leaves n) -> keys_all short_key (leaves n) ->
  remove_fits fuel n k (length pi) = true.
Proof.
  induction fuel as [|f IH]; intros n pi HWF Hext Hpf Hsh; [reflexivity|].
  destruct n as [lid lk lv|c p ch]; [reflexivity|].
  cbn [remove_fits].
  destruct (shared_len p (skipn (length pi) k) <? length p) eqn:Hsl; [reflexivity|].
  destruct (nth_error k (length pi + length p)) as [b|] eqn:Hb; [|reflexivity].
  destruct (find_child ch b 0) as [[i c']|] eqn:Hfc; [|reflexivity].
  destruct c' as [lid lk lv|c3 p3 ch3].
  - destruct (lex_compare k lk); try reflexivity.
    destruct (Nat.eqb (length ch) (min_size c)); [|reflexivity].
    destruct c; try reflexivity.
    destruct (nth_error ch (if Nat.eqb i 0 then 1 else 0)) as [[sb s]|] eqn:Hn; [|reflexivity].
    destruct s as [|c3 p3 ch3]; [reflexivity|].
    apply Nat.leb_le. apply nth_error_In in Hn.
    assert (HWF' := HWF). apply WFg_inode in HWF'. destruct HWF' as (_ & _ & _ & _ & Hch).
    unfold WFgch in Hch. rewrite Forall_forall in Hch. destruct (Hch _ Hn) as [_ Hs]. cbn [fst snd] in Hs.
    destruct (WFg_inner_key _ _ _ _ Hs) as (e & Hin & _ & Hlen).
    rewrite !app_length in Hlen. cbn [length] in Hlen.
    assert (Hes : short_key (fst e)).
    { apply (keys_all_in _ _ _ Hsh). rewrite leaves_inode. apply in_cleaves. now exists (sb, Inode c3 p3 ch3). }
    unfold short_key in Hes. lia.
  - destruct (descend_child k c p ch pi b i _ HWF Hpf Hb Hfc) as (l1 & l2 & -> & _ & Hc' & Hpf' & Hlen & _).
    rewrite leaves_inode in Hsh. apply keys_all_mid in Hsh. rewrite <- Hlen.
    exact (IH _ _ Hc' (ext_descend k p pi b Hext Hsl Hb) Hpf' Hsh).
Qed.

Lemma op_fits_short d s o : Invg d s -> keys_all short_key (fst s) -> op_short o -> op_pf s o = true ->
  op_fits d o = true.
Proof.
  intros (HWF & _ & Hag) Hsh Ho Hpf. unfold op_fits, db_WFg, db_leaves in *.
  destruct o as [k|k v|k| |]; try reflexivity; unfold op_pf in Hpf; cbn [op_key] in Hpf, Ho;
    apply andb_true_iff in Hpf; destruct Hpf as [_ Hpf]; apply pfreeb_iff in Hpf;
    destruct (root d) as [n|]; try reflexivity.
  - apply (insert_fits_short k Ho (fuel_for k) n [] HWF (ext_nil k)); eapply keys_all_transfer; eassumption.
  - apply (remove_fits_short k (fuel_for k) n [] HWF (ext_nil k)); eapply keys_all_transfer; eassumption.
Qed.

Lemma hist_ok_short sz : forall ops d s, Invg d s -> keys_all short_key (fst s) -> Forall op_short ops ->
  hist_pf s ops = true -> hist_ok sz d s ops = true.
Proof.
  induction ops as [|o ops IH]; intros d s HInv Hsh Hops Hpf; [reflexivity|].
  apply Forall_cons_iff in Hops. destruct Hops as [Ho Hops].
  cbn [hist_pf] in Hpf. apply andb_true_iff in Hpf. destruct Hpf as [Hpf Hpfs].
  cbn [hist_ok]. assert (Hfits := op_fits_short d s o HInv Hsh Ho Hpf).
  rewrite Hpf, Hfits. cbn [andb].
  destruct (step_correct_g sz d s o HInv Hpf Hfits) as [_ HInv'].
  apply IH; [exact HInv'| |exact Hops|exact Hpfs].
  apply spec_step_keys; [exact Hsh|]. intros k E. unfold op_short in Ho. now rewrite E in Ho.
Qed.

Theorem short_keys_hist_ok : forall sz ops, Forall op_short ops -> hist_pf ([], 0%Z) ops = true ->
  hist_ok sz db0 ([], 0%Z) ops = true.
Proof.
  intros sz ops Hops Hpf. apply hist_ok_short; [exact Invg_init|constructor|exact Hops|exact Hpf].
Qed.

Theorem short_keys_refine : forall sz ops, Forall op_short ops -> hist_pf ([], 0%Z) ops = true ->
  run sz db0 ops = spec_run ([], 0%Z) ops.
Proof. intros sz ops Hops Hpf. apply run_refines_spec_g. now apply short_keys_hist_ok. Qed.
