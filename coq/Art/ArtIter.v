(** M-ART iterator and scans (art.hpp iterator::first/last/next/prior/seek,
    db::scan/scan_from/scan_range), with the seek fall-off as fixed by
    "fix: seek must resume at the parent's sibling ...".  Definitions only.
    [it_seek_pinned] is the algorithm of the pinned tree, kept for the
    machine-checked refutation. *)
From Coq Require Import List ZArith Bool.
From Unodb Require Import Base.Lex Art.ArtModel.
Import ListNotations.
Local Open Scope Z_scope.

(** stack entry: an inner node with the index of the child taken, or the leaf on top *)
Inductive frame := FI (n : node) (i : nat) | FL (n : node).
Definition stack := list frame.

Definition children (n : node) : list (Z * node) :=
  match n with Inode _ _ ch => ch | Leaf _ _ _ => [] end.
Definition prefix_of (n : node) : list Z :=
  match n with Inode _ p _ => p | Leaf _ _ _ => [] end.

Fixpoint height (n : node) : nat :=
  match n with
  | Leaf _ _ _ => O
  | Inode _ _ ch =>
      S ((fix hl (l : list (Z * node)) : nat :=
            match l with [] => O | (_, c) :: l' => Nat.max (height c) (hl l') end) ch)
  end.

Fixpoint left_most (fuel : nat) (n : node) (stk : stack) : res stack :=
  match fuel with
  | O => Err OutOfFuel
  | S f =>
      match n with
      | Leaf _ _ _ => Ok (FL n :: stk)
      | Inode _ _ ch =>
          match ch with
          | [] => Err Malformed
          | (_, c) :: _ => left_most f c (FI n O :: stk)
          end
      end
  end.

Fixpoint right_most (fuel : nat) (n : node) (stk : stack) : res stack :=
  match fuel with
  | O => Err OutOfFuel
  | S f =>
      match n with
      | Leaf _ _ _ => Ok (FL n :: stk)
      | Inode _ _ ch =>
          match nth_error ch (pred (length ch)) with
          | None => Err Malformed
          | Some (_, c) => right_most f c (FI n (pred (length ch)) :: stk)
          end
      end
  end.

Definition lm (n : node) (stk : stack) : res stack := left_most (S (height n)) n stk.
Definition rm (n : node) (stk : stack) : res stack := right_most (S (height n)) n stk.

Definition it_first (r : option node) : res stack :=
  match r with None => Ok [] | Some n => lm n [] end.
Definition it_last (r : option node) : res stack :=
  match r with None => Ok [] | Some n => rm n [] end.

Fixpoint it_next (stk : stack) : res stack :=
  match stk with
  | [] => Ok []
  | FL _ :: s => it_next s
  | FI n i :: s =>
      match nth_error (children n) (S i) with
      | None => it_next s
      | Some (_, c) => lm c (FI n (S i) :: s)
      end
  end.

Fixpoint it_prior (stk : stack) : res stack :=
  match stk with
  | [] => Ok []
  | FL _ :: s => it_prior s
  | FI n i :: s =>
      match i with
      | O => it_prior s
      | S i' =>
          match nth_error (children n) i' with
          | None => Err Malformed
          | Some (_, c) => rm c (FI n i' :: s)
          end
      end
  end.

(** gte_key_byte / lte_key_byte: index of the first child >= b / last child <= b *)
Fixpoint gte_idx (ch : list (Z * node)) (b : Z) (i : nat) : option nat :=
  match ch with
  | [] => None
  | (x, _) :: ch' => if b <=? x then Some i else gte_idx ch' b (S i)
  end.
Fixpoint lte_idx (ch : list (Z * node)) (b : Z) (i : nat) : option nat :=
  match ch with
  | [] => None
  | (x, _) :: ch' =>
      match lte_idx ch' b (S i) with
      | Some j => Some j
      | None => if x <=? b then Some i else None
      end
  end.

Section Seek.
  Variable fixed : bool.  (* true: the repaired fall-off; false: the pinned tree's *)

  (** the pinned fall-off loops *)
  Fixpoint falloff_fwd (stk : stack) : res stack :=
    match stk with
    | [] => Ok []
    | FL _ :: s => Err Malformed
    | FI n i :: s =>
        match nth_error (children n) (S i) with
        | Some _ =>
            match nth_error (children n) i with
            | Some (_, c) => lm c stk
            | None => Err Malformed
            end
        | None => falloff_fwd s
        end
    end.
  Fixpoint falloff_rev (stk : stack) : res stack :=
    match stk with
    | [] => Ok []
    | FL _ :: s => Err Malformed
    | FI n i :: s =>
        match i with
        | S _ =>
            match nth_error (children n) i with
            | Some (_, c) => rm c stk
            | None => Err Malformed
            end
        | O => falloff_rev s
        end
    end.

  Fixpoint seek_go (fuel : nat) (n : node) (k : list Z) (depth : nat) (fwd : bool) (stk : stack)
    : res (stack * bool) :=
    match fuel with
    | O => Err OutOfFuel
    | S f =>
        match n with
        | Leaf _ lk _ =>
            let stk' := FL n :: stk in
            match lex_compare k lk with
            | Eq => Ok (stk', true)
            | Lt => if fwd then Ok (stk', false) else (s <- it_prior stk' ;; Ok (s, false))
            | Gt => if fwd then (s <- it_next stk' ;; Ok (s, false)) else Ok (stk', false)
            end
        | Inode c p ch =>
            if (length k <? depth)%nat then Err Oob else
            let rem := skipn depth k in
            let sl := shared_len p rem in
            if (sl <? length p)%nat then
              kb <- byte_at rem sl ;;
              pb <- byte_at p sl ;;
              if kb <? pb then
                if fwd then (s <- lm n stk ;; Ok (s, false))
                else (s <- lm n stk ;; s' <- it_prior s ;; Ok (s', false))
              else
                if fwd then (s <- rm n stk ;; s' <- it_next s ;; Ok (s', false))
                else (s <- rm n stk ;; Ok (s, false))
            else
              let d := (depth + length p)%nat in
              b <- byte_at k d ;;
              match find_child ch b O with
              | Some (i, c') => seek_go f c' k (S d) fwd (FI n i :: stk)
              | None =>
                  if fwd then
                    match gte_idx ch b O with
                    | Some j =>
                        match nth_error ch j with
                        | Some (_, c') => s <- lm c' (FI n j :: stk) ;; Ok (s, false)
                        | None => Err Malformed
                        end
                    | None =>
                        if fixed then (s <- it_next stk ;; Ok (s, false))
                        else (s <- falloff_fwd (tl stk) ;; Ok (s, false))
                    end
                  else
                    match lte_idx ch b O with
                    | Some j =>
                        match nth_error ch j with
                        | Some (_, c') => s <- rm c' (FI n j :: stk) ;; Ok (s, false)
                        | None => Err Malformed
                        end
                    | None =>
                        if fixed then (s <- it_prior stk ;; Ok (s, false))
                        else (s <- falloff_rev (tl stk) ;; Ok (s, false))
                    end
              end
        end
    end.
End Seek.

Definition it_seek (r : option node) (k : list Z) (fwd : bool) : res (stack * bool) :=
  match r with
  | None => Ok ([], false)
  | Some n => seek_go true (fuel_for k) n k O fwd []
  end.
Definition it_seek_pinned (r : option node) (k : list Z) (fwd : bool) : res (stack * bool) :=
  match r with
  | None => Ok ([], false)
  | Some n => seek_go false (fuel_for k) n k O fwd []
  end.

Definition current (stk : stack) : option (list Z * list Z) :=
  match stk with
  | FL (Leaf _ k v) :: _ => Some (k, v)
  | _ => None
  end.

Fixpoint size (n : node) : nat :=
  match n with
  | Leaf _ _ _ => 1%nat
  | Inode _ _ ch => S ((fix sl (l : list (Z * node)) : nat :=
                          match l with [] => O | (_, c) :: l' => (size c + sl l')%nat end) ch)
  end.

(** The visitor is abstracted by the index of the call at which it returns
    true ([None] = never).  scan_range stops before the first key for which
    [stop] holds. *)
Fixpoint scan_loop (fuel : nat) (fwd : bool) (stop : list Z -> bool) (halt : option nat)
         (stk : stack) (acc : list (list Z * list Z)) : res (list (list Z * list Z)) :=
  match fuel with
  | O => Err OutOfFuel
  | S f =>
      match current stk with
      | None => Ok (rev acc)
      | Some (k, v) =>
          if stop k then Ok (rev acc) else
          let acc' := (k, v) :: acc in
          match halt with
          | Some O => Ok (rev acc')
          | _ =>
              s <- (if fwd then it_next stk else it_prior stk) ;;
              scan_loop f fwd stop (match halt with Some (S h) => Some h | _ => None end) s acc'
          end
      end
  end.

Definition scan_fuel (r : option node) : nat := match r with None => 1%nat | Some n => S (S (size n)) end.

Definition db_scan (d : db) (fwd : bool) (halt : option nat) : res (list (list Z * list Z)) :=
  s <- (if fwd then it_first (root d) else it_last (root d)) ;;
  scan_loop (scan_fuel (root d)) fwd (fun _ => false) halt s [].

Definition db_scan_from (d : db) (k : list Z) (fwd : bool) (halt : option nat) : res (list (list Z * list Z)) :=
  r <- it_seek (root d) k fwd ;;
  scan_loop (scan_fuel (root d)) fwd (fun _ => false) halt (fst r) [].

Definition db_scan_range (d : db) (a b : list Z) (halt : option nat) : res (list (list Z * list Z)) :=
  match lex_compare a b with
  | Eq => Ok []
  | Lt =>
      r <- it_seek (root d) a true ;;
      scan_loop (scan_fuel (root d)) true (fun k => negb (lex_ltb k b)) halt (fst r) []
  | Gt =>
      r <- it_seek (root d) a false ;;
      scan_loop (scan_fuel (root d)) false (fun k => lex_leb k b) halt (fst r) []
  end.

Definition db_scan_from_pinned (d : db) (k : list Z) (fwd : bool) : res (list (list Z * list Z)) :=
  r <- it_seek_pinned (root d) k fwd ;;
  scan_loop (scan_fuel (root d)) fwd (fun _ => false) None (fst r) [].
