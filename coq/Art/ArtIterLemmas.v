(** Auxiliary lemmas for the iterator / scan proofs: sorted lists, filters,
    entry lists that lie on one side of a key, the child-index searches of
    the seek, height and size of a tree. *)
From Coq Require Import List ZArith Bool Lia Sorted Permutation.
From Unodb Require Import Base.Lex Art.ArtModel Art.ArtIter Art.ArtSpec Art.ArtInv Art.ArtLemmas
  Art.ArtScanSpec.
Import ListNotations.

Lemma SSorted_app {A} (R : A -> A -> Prop) l1 l2 :
  StronglySorted R l1 -> StronglySorted R l2 -> (forall a b, In a l1 -> In b l2 -> R a b) ->
  StronglySorted R (l1 ++ l2).
Proof.
  intros H1 H2 H. induction H1 as [|a l1 H1 IH Ha]; cbn [app]; [exact H2|].
  constructor.
  - apply IH. intros x y Hx Hy. apply H; [now right|exact Hy].
  - apply Forall_app. split; [exact Ha|]. apply Forall_forall. intros y Hy. apply H; [now left|exact Hy].
Qed.

Lemma SSorted_app_inv {A} (R : A -> A -> Prop) l1 l2 :
  StronglySorted R (l1 ++ l2) ->
  StronglySorted R l1 /\ StronglySorted R l2 /\ (forall a b, In a l1 -> In b l2 -> R a b).
Proof.
  induction l1 as [|x l1 IH]; cbn [app]; intros H.
  - split; [constructor|]. split; [exact H|]. intros a b [].
  - apply StronglySorted_inv in H. destruct H as [H Hx]. destruct (IH H) as (H1 & H2 & H3).
    apply Forall_app in Hx. destruct Hx as [Hx1 Hx2]. split; [now constructor|]. split; [exact H2|].
    intros a b [<-|Ha] Hb; [|now apply H3]. rewrite Forall_forall in Hx2. now apply Hx2.
Qed.

Lemma SSorted_filter {A} (R : A -> A -> Prop) f l : StronglySorted R l -> StronglySorted R (filter f l).
Proof.
  induction 1 as [|a l H IH Ha]; cbn [filter]; [constructor|].
  destruct (f a); [|exact IH]. constructor; [exact IH|].
  rewrite Forall_forall in *. intros x Hx. apply filter_In in Hx. now apply Ha.
Qed.

Lemma SSorted_rev {A} (R : A -> A -> Prop) l :
  StronglySorted R l -> StronglySorted (fun x y => R y x) (rev l).
Proof.
  induction 1 as [|a l H IH Ha]; cbn [rev]; [constructor|].
  apply SSorted_app; [exact IH|repeat constructor|].
  intros x y Hx [<-|[]]. apply in_rev in Hx. rewrite Forall_forall in Ha. now apply Ha.
Qed.

Lemma filter_all {A} (f : A -> bool) l : (forall x, In x l -> f x = true) -> filter f l = l.
Proof.
  induction l as [|a l IH]; intros H; cbn [filter]; [reflexivity|].
  rewrite (H a) by now left. f_equal. apply IH. intros x Hx. apply H. now right.
Qed.

Lemma filter_none {A} (f : A -> bool) l : (forall x, In x l -> f x = false) -> filter f l = [].
Proof.
  induction l as [|a l IH]; intros H; cbn [filter]; [reflexivity|].
  rewrite (H a) by now left. apply IH. intros x Hx. apply H. now right.
Qed.

Lemma filter_filter' {A} (f g : A -> bool) l : filter f (filter g l) = filter (fun x => g x && f x) l.
Proof.
  induction l as [|a l IH]; cbn [filter]; [reflexivity|].
  destruct (g a); cbn [filter andb]; [destruct (f a); now rewrite IH|exact IH].
Qed.

Lemma filter_rev' {A} (f : A -> bool) l : filter f (rev l) = rev (filter f l).
Proof.
  induction l as [|a l IH]; cbn [rev filter]; [reflexivity|].
  rewrite filter_app, IH. cbn [filter]. destruct (f a); cbn [rev]; [reflexivity|apply app_nil_r].
Qed.

(** The longest initial segment on which [f] holds. *)
Fixpoint twhile {A} (f : A -> bool) (l : list A) : list A :=
  match l with [] => [] | x :: l' => if f x then x :: twhile f l' else [] end.

Lemma twhile_filter_sorted {A} (R : A -> A -> Prop) (f : A -> bool) l :
  StronglySorted R l -> (forall x y, R x y -> f y = true -> f x = true) -> twhile f l = filter f l.
Proof.
  intros HS Hf. induction HS as [|a l H IH Ha]; cbn [twhile filter]; [reflexivity|].
  destruct (f a) eqn:E; [now rewrite IH|].
  symmetry. apply filter_none. intros x Hx. rewrite Forall_forall in Ha.
  destruct (f x) eqn:E2; [|reflexivity]. rewrite (Hf a x (Ha x Hx) E2) in E. discriminate.
Qed.

Lemma twhile_all {A} (f : A -> bool) l : (forall x, f x = true) -> twhile f l = l.
Proof. intros H. induction l as [|a l IH]; cbn [twhile]; [reflexivity|]. now rewrite H, IH. Qed.

Lemma twhile_true {A} (l : list A) : twhile (fun _ => true) l = l.
Proof. now apply twhile_all. Qed.

Lemma take_until_nil {A} h : take_until h (@nil A) = [].
Proof. destruct h; reflexivity. Qed.

Lemma firstn_mid {A} (l1 : list A) x l2 : firstn (length l1) (l1 ++ x :: l2) = l1.
Proof. rewrite firstn_app, Nat.sub_diag, firstn_all. cbn [firstn]. apply app_nil_r. Qed.

Lemma skipn_mid {A} (l1 : list A) x l2 : skipn (S (length l1)) (l1 ++ x :: l2) = l2.
Proof.
  rewrite skipn_app. replace (S (length l1) - length l1) with 1 by lia.
  rewrite skipn_all2 by lia. reflexivity.
Qed.

Lemma nth_error_mid {A} (l1 : list A) x l2 : nth_error (l1 ++ x :: l2) (length l1) = Some x.
Proof. rewrite nth_error_app2 by lia. now rewrite Nat.sub_diag. Qed.

Lemma filter_len {A} (f : A -> bool) l : length (filter f l) <= length l.
Proof. induction l as [|a l IH]; cbn [filter length]; [lia|]. destruct (f a); cbn [length]; lia. Qed.

Lemma negb_leb x b : negb (lex_leb x b) = lex_ltb b x.
Proof.
  unfold lex_leb, lex_ltb. rewrite (lex_compare_antisym x b). now destruct (lex_compare x b).
Qed.

Lemma kvs_rev l : kvs (rev l) = rev (kvs l).
Proof. unfold kvs. apply map_rev. Qed.

Lemma lex_lt_diff q k1 k2 b1 b2 : ext q k1 -> ext q k2 ->
  nth_error k1 (length q) = Some b1 -> nth_error k2 (length q) = Some b2 -> (b1 < b2)%Z -> lex_lt k1 k2.
Proof.
  intros [s1 ->]%ext_iff [s2 ->]%ext_iff H1 H2 Hlt.
  rewrite nth_error_app2, Nat.sub_diag in H1 by lia.
  rewrite nth_error_app2, Nat.sub_diag in H2 by lia.
  destruct s1 as [|x s1]; [discriminate|]. destruct s2 as [|y s2]; [discriminate|].
  cbn [nth_error] in H1, H2. injection H1 as ->. injection H2 as ->.
  unfold lex_lt. rewrite lex_compare_app_same. cbn [lex_compare].
  apply Z.compare_lt_iff in Hlt. now rewrite Hlt.
Qed.

Definition all_lt (k : list Z) (l : list entry) : Prop := Forall (fun e => lex_lt (fst e) k) l.
Definition all_gt (k : list Z) (l : list entry) : Prop := Forall (fun e => lex_lt k (fst e)) l.

Lemma lex_lt_leb a b : lex_lt a b -> lex_leb a b = true /\ lex_leb b a = false.
Proof.
  intros H. unfold lex_leb. rewrite (lex_compare_antisym a b). unfold lex_lt in H. rewrite H. now split.
Qed.

Definition dirl (fwd : bool) (l : list entry) : list entry := if fwd then l else rev l.

Lemma dirl_length fwd l : length (dirl fwd l) = length l.
Proof. destruct fwd; [reflexivity|apply rev_length]. Qed.

Definition side (fwd : bool) (k : list Z) : entry -> bool := if fwd then ge_key k else le_key k.

Definition beyond (fwd : bool) (k : list Z) (l : list entry) : Prop := if fwd then all_gt k l else all_lt k l.
Definition behind (fwd : bool) (k : list Z) (l : list entry) : Prop := if fwd then all_lt k l else all_gt k l.

Lemma filter_beyond fwd k l : beyond fwd k l -> filter (side fwd k) l = l.
Proof.
  intros H. apply filter_all. intros e He.
  destruct fwd; cbn in H |- *; unfold all_gt, all_lt in H; rewrite Forall_forall in H;
    unfold ge_key, le_key; now apply lex_lt_leb, H.
Qed.

Lemma filter_behind fwd k l : behind fwd k l -> filter (side fwd k) l = [].
Proof.
  intros H. apply filter_none. intros e He.
  destruct fwd; cbn in H |- *; unfold all_gt, all_lt in H; rewrite Forall_forall in H;
    unfold ge_key, le_key; now apply lex_lt_leb, H.
Qed.

Lemma filter_side_mid fwd k l1 m l2 : all_lt k l1 -> all_gt k l2 ->
  dirl fwd (filter (side fwd k) (l1 ++ m ++ l2)) =
  dirl fwd (filter (side fwd k) m) ++ dirl fwd (if fwd then l2 else l1).
Proof.
  intros H1 H2. rewrite !filter_app. destruct fwd.
  - rewrite (filter_behind true k l1 H1), (filter_beyond true k l2 H2). reflexivity.
  - rewrite (filter_beyond false k l1 H1), (filter_behind false k l2 H2). cbn [dirl].
    now rewrite app_nil_r, rev_app_distr.
Qed.

(** Children of a node reached by the path [q]. *)
Definition tagged (q : list Z) (l : list (Z * node)) : Prop :=
  Forall (fun bc => byte_tag (length q) bc /\ keys_all (ext q) (leaves (snd bc))) l.

Lemma tagged_lt q k b l : ext q k -> nth_error k (length q) = Some b -> tagged q l ->
  Forall (fun bc => (fst bc < b)%Z) l -> all_lt k (cleaves l).
Proof.
  intros Hk Hb HT Hlt. unfold all_lt, cleaves. apply Forall_flat_map.
  unfold tagged in HT. rewrite Forall_forall in *. intros bc Hin.
  apply Forall_forall. intros e He. destruct (HT bc Hin) as [HB HE].
  assert (H2 := HB e He). assert (H1 := keys_all_in _ _ e HE He).
  eapply lex_lt_diff; [exact H1|exact Hk|exact H2|exact Hb|now apply Hlt].
Qed.

Lemma tagged_gt q k b l : ext q k -> nth_error k (length q) = Some b -> tagged q l ->
  Forall (fun bc => (b < fst bc)%Z) l -> all_gt k (cleaves l).
Proof.
  intros Hk Hb HT Hlt. unfold all_gt, cleaves. apply Forall_flat_map.
  unfold tagged in HT. rewrite Forall_forall in *. intros bc Hin.
  apply Forall_forall. intros e He. destruct (HT bc Hin) as [HB HE].
  assert (H2 := HB e He). assert (H1 := keys_all_in _ _ e HE He).
  eapply lex_lt_diff; [exact Hk|exact H1|exact Hb|exact H2|now apply Hlt].
Qed.

Lemma tagged_split q l1 x l2 : tagged q (l1 ++ x :: l2) -> tagged q l1 /\ tagged q (x :: l2) /\ tagged q l2.
Proof.
  unfold tagged. intros H. apply Forall_app in H. destruct H as [H1 H2]. split; [exact H1|]. split; [exact H2|].
  now apply Forall_cons_iff in H2.
Qed.

Lemma keys_sorted_split l1 x c l2 : keys_sorted (l1 ++ (x, c) :: l2) ->
  Forall (fun bc : Z * node => (fst bc < x)%Z) l1 /\ Forall (fun bc : Z * node => (x < fst bc)%Z) l2.
Proof.
  unfold keys_sorted. rewrite map_app. cbn [map fst]. intros H.
  apply SSorted_app_inv in H. destruct H as (_ & H2 & H3).
  apply StronglySorted_inv in H2. destruct H2 as [_ H2]. split.
  - apply Forall_forall. intros bc Hin. apply H3; [now apply in_map|now left].
  - rewrite Forall_map in H2. exact H2.
Qed.

Lemma gte_idx_some ch : forall b j i, gte_idx ch b j = Some i ->
  exists l1 x c l2, ch = l1 ++ (x, c) :: l2 /\ i = j + length l1 /\
    Forall (fun bc : Z * node => (fst bc < b)%Z) l1 /\ (b <= x)%Z.
Proof.
  induction ch as [|[x c] ch IH]; intros b j i H; cbn [gte_idx] in H; [discriminate|].
  destruct (Z.leb_spec b x) as [Hle|Hlt].
  - injection H as <-. exists [], x, c, ch. cbn. repeat split; [lia|constructor|exact Hle].
  - destruct (IH _ _ _ H) as (l1 & y & c' & l2 & -> & -> & H1 & H2).
    exists ((x, c) :: l1), y, c', l2. cbn [app length]. repeat split; [lia| |exact H2].
    constructor; [exact Hlt|exact H1].
Qed.

Lemma gte_idx_none ch : forall b j, gte_idx ch b j = None ->
  Forall (fun bc : Z * node => (fst bc < b)%Z) ch.
Proof.
  induction ch as [|[x c] ch IH]; intros b j H; cbn [gte_idx] in H; [constructor|].
  destruct (Z.leb_spec b x) as [Hle|Hlt]; [discriminate|].
  constructor; [exact Hlt|]. eapply IH; exact H.
Qed.

Lemma lte_idx_none ch : forall b j, lte_idx ch b j = None ->
  Forall (fun bc : Z * node => (b < fst bc)%Z) ch.
Proof.
  induction ch as [|[y c'] ch IH]; intros b j E; [constructor|].
  cbn [lte_idx] in E. destruct (lte_idx ch b (S j)) eqn:E2; [discriminate|].
  destruct (Z.leb_spec y b); [discriminate|]. constructor; [assumption|]. eapply IH; exact E2.
Qed.

Lemma lte_idx_some ch : forall b j i, lte_idx ch b j = Some i ->
  exists l1 x c l2, ch = l1 ++ (x, c) :: l2 /\ i = j + length l1 /\
    (x <= b)%Z /\ Forall (fun bc : Z * node => (b < fst bc)%Z) l2.
Proof.
  induction ch as [|[x c] ch IH]; intros b j i H; cbn [lte_idx] in H; [discriminate|].
  destruct (lte_idx ch b (S j)) as [i'|] eqn:E.
  - injection H as <-. destruct (IH _ _ _ E) as (l1 & y & c' & l2 & -> & -> & H1 & H2).
    exists ((x, c) :: l1), y, c', l2. cbn [app length]. repeat split; [lia|exact H1|exact H2].
  - destruct (Z.leb_spec x b) as [Hle|Hlt]; [|discriminate]. injection H as <-.
    exists [], x, c, ch. cbn [app length]. repeat split; [lia|exact Hle|].
    eapply lte_idx_none; exact E.
Qed.

Lemma height_child c p ch bc : In bc ch -> height (snd bc) < height (Inode c p ch).
Proof.
  intros H. cbn [height]. apply Nat.lt_succ_r.
  induction ch as [|[b c0] ch IH]; [destruct H|].
  destruct H as [<-|H]; cbn [snd].
  - apply Nat.le_max_l.
  - etransitivity; [apply IH, H|apply Nat.le_max_r].
Qed.

Lemma leaves_size n : length (leaves n) <= size n.
Proof.
  induction n as [id k v|c p ch IH] using node_ind2; [cbn; lia|].
  rewrite leaves_inode. cbn [size]. apply Nat.le_le_succ_r.
  induction ch as [|[b c0] ch IHl]; [cbn; lia|].
  apply Forall_cons_iff in IH. destruct IH as [H1 H2]. cbn [snd] in H1.
  rewrite cleaves_cons, app_length. specialize (IHl H2). lia.
Qed.
