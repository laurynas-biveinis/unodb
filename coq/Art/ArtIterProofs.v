(** The scans on keys of one fixed length L, as instances of the theorems on
    prefix-free keys (keys of equal length are prefix-free), and the
    refutation of the seek of the pinned tree. *)
From Coq Require Import List ZArith Bool Lia Sorted Permutation.
From Unodb Require Import Base.Lex Art.ArtModel Art.ArtIter Art.ArtSpec Art.ArtInv Art.ArtLemmas
  Art.ArtScanSpec Art.ArtGenInv Art.ArtGenLemmas Art.ArtGenRun Art.ArtProofs Art.ArtGenIterProofs.
Import ListNotations.

Lemma db_WF_pfk L d k : db_WF L d -> key_ok L k -> pfk k (db_leaves d).
Proof. intros H Hk. exact (key_ok_pfk L k _ Hk (db_WF_keys L d H)). Qed.

Theorem db_leaves_sorted : forall L d, db_WF L d -> StronglySorted entries_lt (db_leaves d).
Proof. intros L d H. exact (db_leaves_sorted_g d (db_WF_WFg L d H)). Qed.

Theorem db_scan_correct : forall L d h, (1 <= L <= 8)%nat -> db_WF L d ->
  db_scan d true h = Ok (take_until h (kvs (db_leaves d))) /\
  db_scan d false h = Ok (take_until h (rev (kvs (db_leaves d)))).
Proof. intros L d h _ H. exact (db_scan_correct_g d h (db_WF_WFg L d H)). Qed.

Theorem db_scan_from_correct : forall L d k h, (1 <= L <= 8)%nat -> db_WF L d -> key_ok L k ->
  db_scan_from d k true h = Ok (take_until h (kvs (filter (ge_key k) (db_leaves d)))) /\
  db_scan_from d k false h = Ok (take_until h (rev (kvs (filter (le_key k) (db_leaves d))))).
Proof. intros L d k h _ H Hk. exact (db_scan_from_correct_g d k h (db_WF_WFg L d H) (db_WF_pfk L d k H Hk)). Qed.

Theorem db_scan_range_correct : forall L d a b h, (1 <= L <= 8)%nat -> db_WF L d -> key_ok L a -> key_ok L b ->
  db_scan_range d a b h =
  Ok (match lex_compare a b with
      | Eq => []
      | Lt => take_until h (kvs (filter (in_fwd_range a b) (db_leaves d)))
      | Gt => take_until h (rev (kvs (filter (in_rev_range a b) (db_leaves d))))
      end).
Proof. intros L d a b h _ H Ha _. exact (db_scan_range_correct_g d a b h (db_WF_WFg L d H) (db_WF_pfk L d a H Ha)). Qed.

(** The seek of the pinned tree.  Keys 0, 1, 256 as 64-bit integers:
    inserting them gives an inner node whose first child is an inner node.
    Seeking 5 forward descends into that child, finds no byte >= 5 there, and
    the pinned fall-off restarts at the child itself instead of the parent's
    next sibling. *)

Definition pin_key (a b : Z) : list Z := [0; 0; 0; 0; 0; 0; a; b]%Z.
Definition pin_ops : list op :=
  [OInsert (pin_key 0 0) [1%Z]; OInsert (pin_key 0 1) [2%Z]; OInsert (pin_key 1 0) [3%Z]].

Theorem pinned_seek_refuted : exists d k,
  db_WF 8 d /\ key_ok 8 k /\
  db_scan_from_pinned d k true <> Ok (kvs (filter (ge_key k) (db_leaves d))).
Proof.
  assert (Hk : forall a b, bytesb (pin_key a b) = true -> key_ok 8 (pin_key a b))
    by (intros a b H; split; [reflexivity|now apply bytesb_iff]).
  exists (run_state ex_sizes db0 pin_ops), (pin_key 0 5). split; [|split].
  - apply (run_state_invariant 8 ex_sizes pin_ops); [lia|].
    repeat (constructor; [apply Hk; reflexivity|]). constructor.
  - apply Hk. reflexivity.
  - vm_compute. discriminate.
Qed.
