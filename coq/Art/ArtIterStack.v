(** An iterator stack read as the entries still ahead of the position, in
    scan order, for either direction; left_most / right_most / next / prior,
    the scan loop and the moves of a seek in those terms.  Of the tree only
    [ne] (every inner node has a child) is needed. *)
From Coq Require Import List ZArith Bool Lia Sorted Permutation.
From Unodb Require Import Base.Lex Art.ArtModel Art.ArtIter Art.ArtSpec Art.ArtInv Art.ArtLemmas
  Art.ArtScanSpec Art.ArtIterLemmas.
Import ListNotations.

(** Every inner node of the tree has at least one child. *)
Inductive ne : node -> Prop :=
| ne_leaf id k v : ne (Leaf id k v)
| ne_inode c p ch : ch <> [] -> Forall (fun bc => ne (snd bc)) ch -> ne (Inode c p ch).

Lemma ne_children c p ch : ne (Inode c p ch) -> ch <> [] /\ Forall (fun bc => ne (snd bc)) ch.
Proof. inversion 1. now split. Qed.

Lemma ne_child n bc : ne n -> In bc (children n) -> ne (snd bc).
Proof.
  destruct n as [id k v|c p ch]; [intros _ []|]. intros H Hin.
  apply ne_children in H. destruct H as [_ H]. rewrite Forall_forall in H. exact (H _ Hin).
Qed.

Definition frame_ok (f : frame) : Prop :=
  match f with FI n i => ne n /\ i < length (children n) | FL _ => True end.
Definition stack_ok (stk : stack) : Prop := Forall frame_ok stk.

Lemma stack_ok_push n i stk : ne n -> i < length (children n) -> stack_ok stk -> stack_ok (FI n i :: stk).
Proof. intros. constructor; [split|]; assumption. Qed.

Definition unvisited (fwd : bool) (n : node) (i : nat) : list (Z * node) :=
  if fwd then skipn (S i) (children n) else firstn i (children n).

(** The entries below the unvisited children of the inner frames, innermost
    frame first: what the scan still has to reach after the current leaf. *)
Fixpoint rest (fwd : bool) (stk : stack) : list entry :=
  match stk with
  | [] => []
  | FL _ :: s => rest fwd s
  | FI n i :: s => dirl fwd (cleaves (unvisited fwd n i)) ++ rest fwd s
  end.
Definition top_leaves (stk : stack) : list entry :=
  match stk with FL n :: _ => leaves n | _ => [] end.
(** All entries from the position on, the current one ([top_leaves]) first. *)
Definition ahead (fwd : bool) (stk : stack) : list entry := dirl fwd (top_leaves stk) ++ rest fwd stk.

(** A valid iterator position: at the end (empty stack) or on a leaf. *)
Definition is_pos (stk : stack) : Prop :=
  match stk with [] => True | FL (Leaf _ _ _) :: _ => True | _ => False end.

Definition Pos (fwd : bool) (stk : stack) (l : list entry) : Prop :=
  stack_ok stk /\ is_pos stk /\ ahead fwd stk = l.

Lemma Pos_eq fwd stk l l' : Pos fwd stk l -> l = l' -> Pos fwd stk l'.
Proof. now intros H <-. Qed.

Lemma Pos_leaf fwd id k v stk : stack_ok stk -> Pos fwd (FL (Leaf id k v) :: stk) ((k, (id, v)) :: rest fwd stk).
Proof. intros Hs. split; [constructor; [exact I|exact Hs]|]. split; [exact I|]. now destruct fwd. Qed.

Lemma Pos_cases fwd stk l : Pos fwd stk l ->
  stk = [] /\ l = [] \/ exists id k v s, stk = FL (Leaf id k v) :: s /\ stack_ok s /\ l = (k, (id, v)) :: rest fwd s.
Proof.
  intros (Hs & Hp & <-). destruct stk as [|[n i|[id k v|c p ch]] s]; cbn in Hp; try contradiction.
  - left. split; [reflexivity|now destruct fwd].
  - right. exists id, k, v, s. split; [reflexivity|]. split; [now apply Forall_cons_iff in Hs|now destruct fwd].
Qed.

Lemma cleaves_nth ch i b c : nth_error ch i = Some (b, c) ->
  cleaves (skipn i ch) = leaves c ++ cleaves (skipn (S i) ch) /\
  cleaves (firstn (S i) ch) = cleaves (firstn i ch) ++ leaves c.
Proof.
  intros H. apply nth_error_split in H. destruct H as (l1 & l2 & -> & <-). split.
  - rewrite skipn_mid. rewrite skipn_app, Nat.sub_diag, skipn_all. reflexivity.
  - replace (S (length l1)) with (length (l1 ++ [(b, c)])) by (rewrite app_length; cbn; lia).
    replace (l1 ++ (b, c) :: l2) with ((l1 ++ [(b, c)]) ++ l2) by (now rewrite <- app_assoc).
    rewrite firstn_app, Nat.sub_diag, firstn_all. cbn [firstn]. rewrite app_nil_r.
    rewrite <- app_assoc. cbn [app]. rewrite firstn_mid.
    rewrite cleaves_app. unfold cleaves at 2. cbn [flat_map snd]. now rewrite app_nil_r.
Qed.

Lemma left_most_spec : forall fuel n stk, height n < fuel -> ne n -> stack_ok stk ->
  exists stk', left_most fuel n stk = Ok stk' /\
    Pos true stk' (leaves n ++ rest true stk) /\ rest false stk' = rest false stk.
Proof.
  induction fuel as [|f IH]; intros n stk Hh Hn Hs; [lia|].
  destruct n as [id k v|c p ch].
  - cbn [left_most]. eexists. split; [reflexivity|]. split; [now apply Pos_leaf|reflexivity].
  - destruct (ne_children _ _ _ Hn) as [Hne Hch].
    destruct ch as [|[b c0] ch]; [contradiction|]. cbn [left_most].
    assert (Hc0 : ne c0) by (apply Forall_cons_iff in Hch; exact (proj1 Hch)).
    assert (Hh0 : height c0 < f).
    { assert (X := height_child c p ((b, c0) :: ch) (b, c0) (or_introl eq_refl)). cbn [snd] in X. lia. }
    assert (Hs' : stack_ok (FI (Inode c p ((b, c0) :: ch)) 0 :: stk)).
    { apply stack_ok_push; [exact Hn| |exact Hs]. cbn [children length]. lia. }
    destruct (IH c0 _ Hh0 Hc0 Hs') as (stk' & E & HP & HR).
    exists stk'. split; [exact E|]. split.
    + eapply Pos_eq; [exact HP|]. cbn [rest unvisited dirl children skipn].
      rewrite leaves_inode, cleaves_cons. now rewrite app_assoc.
    + rewrite HR. reflexivity.
Qed.

Lemma right_most_spec : forall fuel n stk, height n < fuel -> ne n -> stack_ok stk ->
  exists stk', right_most fuel n stk = Ok stk' /\
    Pos false stk' (rev (leaves n) ++ rest false stk) /\ rest true stk' = rest true stk.
Proof.
  induction fuel as [|f IH]; intros n stk Hh Hn Hs; [lia|].
  destruct n as [id k v|c p ch].
  - cbn [right_most]. eexists. split; [reflexivity|]. split; [now apply Pos_leaf|reflexivity].
  - destruct (ne_children _ _ _ Hn) as [Hne Hch]. cbn [right_most].
    destruct (nth_error ch (pred (length ch))) as [[b c0]|] eqn:En.
    2:{ apply nth_error_None in En. destruct ch; [contradiction|cbn [length] in En; lia]. }
    assert (Hin : In (b, c0) ch) by (eapply nth_error_In; exact En).
    assert (Hc0 : ne c0) by (rewrite Forall_forall in Hch; exact (Hch _ Hin)).
    assert (Hh0 : height c0 < f).
    { assert (X := height_child c p ch (b, c0) Hin). cbn [snd] in X. lia. }
    assert (Hlen : pred (length ch) < length ch) by (apply nth_error_Some; congruence).
    assert (Hs' : stack_ok (FI (Inode c p ch) (pred (length ch)) :: stk)) by (now apply stack_ok_push).
    destruct (IH c0 _ Hh0 Hc0 Hs') as (stk' & E & HP & HR).
    exists stk'. split; [exact E|].
    destruct (cleaves_nth _ _ _ _ En) as [_ X2].
    replace (S (pred (length ch))) with (length ch) in X2 by lia. rewrite firstn_all in X2.
    split.
    + eapply Pos_eq; [exact HP|]. cbn [rest unvisited dirl children].
      rewrite leaves_inode, X2, rev_app_distr. now rewrite app_assoc.
    + rewrite HR. cbn [rest unvisited dirl children].
      replace (S (pred (length ch))) with (length ch) by lia. rewrite skipn_all. reflexivity.
Qed.

Lemma left_right_most_spec (fwd : bool) n stk : ne n -> stack_ok stk ->
  exists stk', (if fwd then lm n stk else rm n stk) = Ok stk' /\
    Pos fwd stk' (dirl fwd (leaves n) ++ rest fwd stk) /\ rest (negb fwd) stk' = rest (negb fwd) stk.
Proof.
  intros Hn Hs. destruct fwd.
  - apply left_most_spec; [apply Nat.lt_succ_diag_r|exact Hn|exact Hs].
  - apply right_most_spec; [apply Nat.lt_succ_diag_r|exact Hn|exact Hs].
Qed.

Lemma it_next_spec stk : stack_ok stk -> exists stk', it_next stk = Ok stk' /\ Pos true stk' (rest true stk).
Proof.
  induction stk as [|[n i|n] s IH]; intros Hs.
  - exists []. repeat split. constructor.
  - apply Forall_cons_iff in Hs. destruct Hs as [[Hn Hi] Hs]. cbn [it_next].
    destruct (nth_error (children n) (S i)) as [[b c]|] eqn:En.
    + assert (Hc : ne c) by (apply (ne_child n (b, c) Hn); eapply nth_error_In; exact En).
      assert (Hs' : stack_ok (FI n (S i) :: s)).
      { apply stack_ok_push; [exact Hn| |exact Hs]. apply nth_error_Some. congruence. }
      destruct (left_right_most_spec true c _ Hc Hs') as (stk' & E & HP & _).
      exists stk'. split; [exact E|]. eapply Pos_eq; [exact HP|].
      cbn [rest unvisited dirl]. destruct (cleaves_nth _ _ _ _ En) as [X _]. rewrite X.
      now rewrite app_assoc.
    + destruct (IH Hs) as (stk' & E & HP). exists stk'. split; [exact E|]. eapply Pos_eq; [exact HP|].
      cbn [rest unvisited dirl]. apply nth_error_None in En. rewrite skipn_all2 by exact En. reflexivity.
  - apply Forall_cons_iff in Hs. destruct Hs as [_ Hs]. cbn [it_next rest]. exact (IH Hs).
Qed.

Lemma it_prior_spec stk : stack_ok stk -> exists stk', it_prior stk = Ok stk' /\ Pos false stk' (rest false stk).
Proof.
  induction stk as [|[n i|n] s IH]; intros Hs.
  - exists []. repeat split. constructor.
  - apply Forall_cons_iff in Hs. destruct Hs as [[Hn Hi] Hs]. cbn [it_prior].
    destruct i as [|i'].
    + destruct (IH Hs) as (stk' & E & HP). exists stk'. split; [exact E|exact HP].
    + destruct (nth_error (children n) i') as [[b c]|] eqn:En.
      2:{ apply nth_error_None in En. lia. }
      assert (Hc : ne c) by (apply (ne_child n (b, c) Hn); eapply nth_error_In; exact En).
      assert (Hs' : stack_ok (FI n i' :: s)) by (apply stack_ok_push; [exact Hn|lia|exact Hs]).
      destruct (left_right_most_spec false c _ Hc Hs') as (stk' & E & HP & _).
      exists stk'. split; [exact E|]. eapply Pos_eq; [exact HP|].
      cbn [rest unvisited dirl]. destruct (cleaves_nth _ _ _ _ En) as [_ X]. rewrite X.
      rewrite rev_app_distr. now rewrite app_assoc.
  - apply Forall_cons_iff in Hs. destruct Hs as [_ Hs]. cbn [it_prior rest]. exact (IH Hs).
Qed.

Lemma it_step_spec (fwd : bool) stk : stack_ok stk ->
  exists stk', (if fwd then it_next stk else it_prior stk) = Ok stk' /\ Pos fwd stk' (rest fwd stk).
Proof. destruct fwd; [apply it_next_spec|apply it_prior_spec]. Qed.

Lemma kvs_cons e l : kvs (e :: l) = (fst e, snd (snd e)) :: kvs l.
Proof. reflexivity. Qed.

Lemma scan_loop_spec fwd stop : forall fuel h stk acc l,
  Pos fwd stk l -> length l < fuel ->
  scan_loop fuel fwd stop h stk acc =
  Ok (rev acc ++ take_until h (kvs (twhile (fun e => negb (stop (fst e))) l))).
Proof.
  induction fuel as [|f IH]; intros h stk acc l HP Hf; [lia|].
  destruct (Pos_cases _ _ _ HP) as [[-> ->]|(id & k & v & s & -> & Hs & ->)].
  - cbn [scan_loop current twhile kvs map]. now rewrite take_until_nil, app_nil_r.
  - cbn [scan_loop current twhile fst]. destruct (stop k); cbn [negb].
    + cbn [kvs map]. now rewrite take_until_nil, app_nil_r.
    + rewrite kvs_cons. cbn [fst snd].
      destruct (it_step_spec fwd _ (proj1 HP)) as (stk' & E & HP'). cbn [rest] in HP'. cbn [length] in Hf.
      destruct h as [[|h]|].
      * cbn [take_until firstn rev]. reflexivity.
      * rewrite E. cbn [bind]. rewrite (IH _ _ _ _ HP') by lia.
        cbn [rev take_until]. rewrite <- app_assoc. reflexivity.
      * rewrite E. cbn [bind]. rewrite (IH _ _ _ _ HP') by lia.
        cbn [rev take_until]. rewrite <- app_assoc. reflexivity.
Qed.

Lemma scan_loop_from fwd stop h n stk l : Pos fwd stk l -> length l <= length (leaves n) ->
  scan_loop (scan_fuel (Some n)) fwd stop h stk [] =
  Ok (take_until h (kvs (twhile (fun e => negb (stop (fst e))) l))).
Proof.
  intros HP Hl. assert (Hsz := leaves_size n).
  apply (scan_loop_spec fwd stop _ h stk [] l HP). cbn [scan_fuel]. lia.
Qed.

Lemma scan_whole (fwd : bool) h n : ne n ->
  (s <- (if fwd then lm n [] else rm n []) ;; scan_loop (scan_fuel (Some n)) fwd (fun _ => false) h s []) =
  Ok (take_until h (kvs (dirl fwd (leaves n)))).
Proof.
  intros Hn. destruct (left_right_most_spec fwd n [] Hn (Forall_nil _)) as (s & E & HP & _).
  cbn [rest] in HP. rewrite app_nil_r in HP. rewrite E. cbn [bind].
  rewrite (scan_loop_from fwd _ h n s _ HP) by (now rewrite dirl_length).
  now rewrite twhile_all.
Qed.

Lemma seek_enter (fwd : bool) k n stk : ne n -> stack_ok stk -> beyond fwd k (leaves n) ->
  exists s, (if fwd then lm n stk else rm n stk) = Ok s /\
    Pos fwd s (dirl fwd (filter (side fwd k) (leaves n)) ++ rest fwd stk).
Proof.
  intros Hn Hs Hb. destruct (left_right_most_spec fwd n stk Hn Hs) as (s & E & HP & _).
  exists s. split; [exact E|]. now rewrite (filter_beyond _ _ _ Hb).
Qed.

Lemma seek_skip (fwd : bool) k n stk : ne n -> stack_ok stk -> behind fwd k (leaves n) ->
  exists s s', (if fwd then rm n stk else lm n stk) = Ok s /\
    (if fwd then it_next s else it_prior s) = Ok s' /\
    Pos fwd s' (dirl fwd (filter (side fwd k) (leaves n)) ++ rest fwd stk).
Proof.
  intros Hn Hs Hb. destruct (left_right_most_spec (negb fwd) n stk Hn Hs) as (s & E & HP & HR).
  rewrite negb_involutive in HR. destruct (it_step_spec fwd s (proj1 HP)) as (s' & E' & HP').
  exists s, s'. split; [now destruct fwd|]. split; [exact E'|].
  rewrite (filter_behind _ _ _ Hb), <- HR. now destruct fwd.
Qed.

Lemma unvisited_mid fwd c p l1 x l2 :
  unvisited fwd (Inode c p (l1 ++ x :: l2)) (length l1) = if fwd then l2 else l1.
Proof. destruct fwd; cbn [unvisited children]; [apply skipn_mid|apply firstn_mid]. Qed.

Lemma Pos_child fwd k c p l1 x l2 s stk :
  Pos fwd s (dirl fwd (filter (side fwd k) (leaves (snd x))) ++
             rest fwd (FI (Inode c p (l1 ++ x :: l2)) (length l1) :: stk)) ->
  all_lt k (cleaves l1) -> all_gt k (cleaves l2) ->
  Pos fwd s (dirl fwd (filter (side fwd k) (leaves (Inode c p (l1 ++ x :: l2)))) ++ rest fwd stk).
Proof.
  intros HP H1 H2. eapply Pos_eq; [exact HP|].
  rewrite leaves_inode, cleaves_mid, (filter_side_mid fwd k _ _ _ H1 H2).
  cbn [rest]. rewrite unvisited_mid, <- app_assoc. now destruct fwd.
Qed.

Lemma enter_child (fwd : bool) k c p l1 x c' l2 stk :
  ne (Inode c p (l1 ++ (x, c') :: l2)) -> stack_ok stk ->
  all_lt k (cleaves l1) -> all_gt k (cleaves l2) -> beyond fwd k (leaves c') ->
  exists s, (if fwd then lm c' (FI (Inode c p (l1 ++ (x, c') :: l2)) (length l1) :: stk)
             else rm c' (FI (Inode c p (l1 ++ (x, c') :: l2)) (length l1) :: stk)) = Ok s /\
    Pos fwd s (dirl fwd (filter (side fwd k) (leaves (Inode c p (l1 ++ (x, c') :: l2)))) ++ rest fwd stk).
Proof.
  intros Hn Hs H1 H2 Hb.
  destruct (seek_enter fwd k c' (FI (Inode c p (l1 ++ (x, c') :: l2)) (length l1) :: stk)) as (s & E & HP).
  - apply (ne_child _ (x, c') Hn), in_elt.
  - apply stack_ok_push; [exact Hn| |exact Hs]. cbn [children]. rewrite app_length. cbn [length]. lia.
  - exact Hb.
  - exists s. split; [exact E|]. now apply (Pos_child fwd k c p l1 (x, c') l2).
Qed.
