(** Lemmas for the ART model proofs that mention no invariant (lists, [assoc],
    key prefixes, [common_pad], child arrays and their leaves); at the end [WF]
    unfolded. *)
From Coq Require Import List ZArith Bool Lia Sorted Permutation.
From Unodb Require Import Base.Lex Art.ArtModel Art.ArtSpec Art.ArtInv.
Import ListNotations.

Lemma Forall_firstn' {A} (P : A -> Prop) n : forall l, Forall P l -> Forall P (firstn n l).
Proof.
  induction n as [|n IH]; intros l H; [constructor|].
  destruct H as [|x l Hx H]; cbn [firstn]; constructor; auto.
Qed.

Lemma Forall_skipn' {A} (P : A -> Prop) n : forall l, Forall P l -> Forall P (skipn n l).
Proof.
  induction n as [|n IH]; intros l H; [exact H|].
  destruct H as [|x l Hx H]; cbn [skipn]; [constructor|auto].
Qed.

Lemma Forall_nth_error {A} (P : A -> Prop) l n x : Forall P l -> nth_error l n = Some x -> P x.
Proof. intros H Hn. rewrite Forall_forall in H. apply H. eapply nth_error_In; eassumption. Qed.

Lemma list_Z_eq_dec (a b : list Z) : {a = b} + {a <> b}.
Proof. apply list_eq_dec, Z.eq_dec. Qed.

Lemma assoc_app k l1 l2 :
  assoc k (l1 ++ l2) = match assoc k l1 with Some x => Some x | None => assoc k l2 end.
Proof.
  induction l1 as [|[k' x] l1 IH]; cbn [assoc app]; [reflexivity|].
  destruct (lex_eqb k k'); [reflexivity|exact IH].
Qed.

Lemma assoc_none k l : assoc k l = None <-> ~ In k (map fst l).
Proof.
  induction l as [|[k' x] l IH]; cbn [assoc map In fst].
  - split; [intros _ []|reflexivity].
  - destruct (lex_eqb k k') eqn:E.
    + apply lex_eqb_eq in E. subst k'. split; [discriminate|]. intros H. exfalso. apply H. now left.
    + apply lex_eqb_false in E. rewrite IH. split.
      * intros H [H1|H1]; [congruence|contradiction].
      * intros H H1. apply H. now right.
Qed.

Lemma assoc_in_keys k (l : list entry) : In k (map fst l) -> exists x, assoc k l = Some x.
Proof.
  intros H. destruct (assoc k l) as [x|] eqn:E; [now exists x|].
  apply assoc_none in E. contradiction.
Qed.

Lemma assoc_some_in k x l : assoc k l = Some x -> In (k, x) l.
Proof.
  induction l as [|[k' y] l IH]; cbn [assoc In]; [discriminate|].
  destruct (lex_eqb k k') eqn:E.
  - apply lex_eqb_eq in E. subst k'. intros H. injection H as ->. now left.
  - intros H. right. now apply IH.
Qed.

Lemma in_assoc k x l : NoDup (map fst l) -> In (k, x) l -> assoc k l = Some x.
Proof.
  induction l as [|[k' y] l IH]; cbn [assoc In map fst]; [intros _ []|].
  intros ND [H|H].
  - injection H as -> ->. now rewrite lex_eqb_refl.
  - apply NoDup_cons_iff in ND. destruct ND as [Hn ND].
    destruct (lex_eqb k k') eqn:E.
    + apply lex_eqb_eq in E. subst k'. exfalso. apply Hn.
      change k with (fst (k, x)). now apply in_map.
    + now apply IH.
Qed.

Lemma assoc_perm k l l' : NoDup (map fst l) -> Permutation l l' -> assoc k l = assoc k l'.
Proof.
  intros ND HP.
  assert (ND' : NoDup (map fst l')).
  { eapply Permutation_NoDup; [|exact ND]. now apply Permutation_map. }
  destruct (assoc k l) as [x|] eqn:E.
  - symmetry. apply in_assoc; [exact ND'|].
    eapply Permutation_in; [exact HP|]. now apply assoc_some_in.
  - symmetry. apply assoc_none. apply assoc_none in E. intros H. apply E.
    eapply Permutation_in; [|exact H]. apply Permutation_map. now apply Permutation_sym.
Qed.

Lemma assoc_perm_cons k x l l' : NoDup (map fst l) -> Permutation l ((k, x) :: l') ->
  forall k', assoc k' l = if lex_eqb k' k then Some x else assoc k' l'.
Proof. intros ND HP k'. now rewrite (assoc_perm k' _ _ ND HP). Qed.

Lemma assoc_perm_remove k x l l' : NoDup (map fst l) -> Permutation l ((k, x) :: l') ->
  forall k', assoc k' l' = if lex_eqb k' k then None else assoc k' l.
Proof.
  intros ND HP k'. rewrite (assoc_perm_cons k x l l' ND HP).
  destruct (lex_eqb k' k) eqn:E; [|reflexivity]. apply lex_eqb_eq in E. subst k'.
  apply assoc_none. apply (Permutation_map fst), (Permutation_NoDup (l' := map fst ((k, x) :: l'))) in HP; [|exact ND].
  cbn [map fst] in HP. now apply NoDup_cons_iff in HP.
Qed.

Lemma assoc_cons k k' x l :
  assoc k ((k', x) :: l) = if lex_eqb k k' then Some x else assoc k l.
Proof. reflexivity. Qed.

Lemma assoc_sremove k k' l :
  assoc k' (sremove k l) = if lex_eqb k' k then None else assoc k' l.
Proof.
  induction l as [|[k2 x] l IH]; cbn [sremove assoc].
  - now destruct (lex_eqb k' k).
  - destruct (lex_eqb k k2) eqn:E.
    + apply lex_eqb_eq in E. subst k2. rewrite IH. now destruct (lex_eqb k' k).
    + cbn [assoc]. rewrite IH. destruct (lex_eqb k' k) eqn:E2; [|reflexivity].
      apply lex_eqb_eq in E2. subst k'. now rewrite E.
Qed.

Lemma NoDup_app_intro {A} (l1 l2 : list A) :
  NoDup l1 -> NoDup l2 -> (forall x, In x l1 -> ~ In x l2) -> NoDup (l1 ++ l2).
Proof.
  induction l1 as [|a l1 IH]; cbn [app]; intros H1 H2 H; [exact H2|].
  apply NoDup_cons_iff in H1. destruct H1 as [Ha H1].
  constructor.
  - rewrite in_app_iff. intros [H3|H3]; [contradiction|]. apply (H a); [now left|exact H3].
  - apply IH; [exact H1|exact H2|]. intros x Hx. apply H. now right.
Qed.

Definition ext (pi k : list Z) : Prop := firstn (length pi) k = pi.

Lemma ext_iff pi k : ext pi k <-> exists s, k = pi ++ s.
Proof.
  unfold ext. split.
  - intros H. exists (skipn (length pi) k). rewrite <- H at 1. symmetry. apply firstn_skipn.
  - intros [s ->]. rewrite firstn_app, Nat.sub_diag, firstn_all. cbn [firstn]. apply app_nil_r.
Qed.

Lemma ext_nil k : ext [] k.
Proof. reflexivity. Qed.

Lemma ext_length pi k : ext pi k -> length pi <= length k.
Proof. intros [s ->]%ext_iff. rewrite app_length. lia. Qed.

Lemma ext_app_l a b k : ext (a ++ b) k -> ext a k.
Proof.
  intros [s ->]%ext_iff. apply ext_iff. exists (b ++ s). now rewrite app_assoc.
Qed.

Lemma ext_skipn pi p k : ext pi k -> (ext p (skipn (length pi) k) <-> ext (pi ++ p) k).
Proof.
  intros [s ->]%ext_iff.
  rewrite skipn_app, Nat.sub_diag, skipn_all. cbn [skipn app].
  rewrite !ext_iff. split; intros [t H]; exists t.
  - rewrite H. now rewrite app_assoc.
  - rewrite <- app_assoc in H. now apply app_inv_head in H.
Qed.

Lemma ext_snoc_inv a b k : ext (a ++ [b]) k -> ext a k /\ nth_error k (length a) = Some b.
Proof.
  intros H. split; [now apply ext_app_l in H|].
  apply ext_iff in H. destruct H as [s ->].
  rewrite <- app_assoc. rewrite nth_error_app2 by lia. now rewrite Nat.sub_diag.
Qed.

Lemma ext_snoc a b k : ext a k -> nth_error k (length a) = Some b -> ext (a ++ [b]) k.
Proof.
  intros [s ->]%ext_iff H.
  rewrite nth_error_app2 in H by lia. rewrite Nat.sub_diag in H.
  destruct s as [|x s]; cbn in H; [discriminate|]. injection H as ->.
  apply ext_iff. exists s. now rewrite <- app_assoc.
Qed.

Lemma ext_same_length a k : ext a k -> length a = length k -> k = a.
Proof.
  intros [s ->]%ext_iff H. rewrite app_length in H.
  destruct s; [now rewrite app_nil_r|cbn in H; lia].
Qed.

Lemma ext_trans a b c : ext a b -> ext b c -> ext a c.
Proof. intros [s ->]%ext_iff [t ->]%ext_iff. apply ext_iff. exists (s ++ t). now rewrite app_assoc. Qed.

Lemma ext_app_skipn pi k p : ext pi k -> ext (skipn (length pi) k) p -> ext k (pi ++ p).
Proof.
  intros [s ->]%ext_iff. rewrite skipn_app, Nat.sub_diag, skipn_all. cbn [skipn app].
  intros [t ->]%ext_iff. apply ext_iff. exists t. now rewrite app_assoc.
Qed.

Lemma ext_refl a : ext a a.
Proof. apply firstn_all. Qed.

Lemma ext_cons x a y b : ext (x :: a) (y :: b) <-> x = y /\ ext a b.
Proof.
  unfold ext. cbn [length firstn]. split; [intros H; injection H as -> H; now split|intros [-> ->]; reflexivity].
Qed.

Lemma ext_dec a b : {ext a b} + {~ ext a b}.
Proof. apply list_Z_eq_dec. Qed.

Lemma ext_path pi q m b k : ext pi k -> m <= length q ->
  firstn m q = firstn m (skipn (length pi) k) -> nth_error k (length pi + m) = Some b ->
  ext (pi ++ firstn m q ++ [b]) k.
Proof.
  intros Hext Hm Hq Hb. assert (Hl : length (firstn m q) = m) by (now apply firstn_length_le).
  rewrite app_assoc. apply ext_snoc.
  - apply (ext_skipn pi _ k Hext). unfold ext. rewrite Hl. now symmetry.
  - now rewrite app_length, Hl.
Qed.

Lemma nth_error_skipn' {A} (l : list A) d n : nth_error (skipn d l) n = nth_error l (d + n).
Proof.
  revert l; induction d as [|d IH]; intros l; [reflexivity|].
  destruct l as [|x l]; [now destruct n|]. cbn [skipn Nat.add nth_error]. apply IH.
Qed.

Lemma nth_error_decomp {A} (l : list A) n x :
  nth_error l n = Some x -> l = firstn n l ++ x :: skipn (S n) l.
Proof.
  revert l; induction n as [|n IH]; intros [|y l] H; try discriminate.
  - cbn in H. injection H as ->. reflexivity.
  - cbn [nth_error] in H. cbn [firstn skipn app]. f_equal. now apply IH.
Qed.

Lemma app_eq_len {A} (a a' b b' : list A) :
  length a = length a' -> a ++ b = a' ++ b' -> a = a' /\ b = b'.
Proof.
  revert a'; induction a as [|x a IH]; intros [|y a'] HL H; try discriminate.
  - now split.
  - cbn in *. injection H as -> H. injection HL as HL. destruct (IH _ HL H) as [-> ->]. now split.
Qed.

Lemma common_pad_le n : forall a b, common_pad n a b <= n.
Proof.
  induction n as [|n IH]; intros a b; cbn [common_pad]; [lia|].
  destruct (Z.eqb _ _); [|lia]. specialize (IH (tl a) (tl b)). lia.
Qed.

Lemma common_pad_full n : forall a b, n <= length a -> n <= length b ->
  firstn n a = firstn n b -> common_pad n a b = n.
Proof.
  induction n as [|n IH]; intros a b Ha Hb H; cbn [common_pad]; [reflexivity|].
  destruct a as [|x a]; [cbn in Ha; lia|]. destruct b as [|y b]; [cbn in Hb; lia|].
  cbn [hd tl length firstn] in *. injection H as -> H. rewrite Z.eqb_refl. f_equal.
  apply IH; [lia|lia|exact H].
Qed.

(** The last conjunct can fail when the comparison ran the full [n] bytes
    and both operands are longer than [n + 1]: hence its hypothesis. *)
Lemma common_pad_pf n : forall a b, ~ ext a b -> ~ ext b a ->
  common_pad n a b < length a /\ common_pad n a b < length b /\
  firstn (common_pad n a b) a = firstn (common_pad n a b) b /\
  (common_pad n a b < n \/ length a <= S n \/ length b <= S n ->
   exists x y, nth_error a (common_pad n a b) = Some x /\ nth_error b (common_pad n a b) = Some y /\ x <> y).
Proof.
  induction n as [|n IH]; intros a b Ha Hb;
    (destruct a as [|x a]; [now contradiction Ha|]); (destruct b as [|y b]; [now contradiction Hb|]);
    cbn [common_pad hd tl length].
  - repeat split; try lia. intros H. exists x, y. repeat split. intros ->.
    destruct H as [H|[H|H]]; [lia| |].
    + apply Ha, ext_cons. split; [reflexivity|]. destruct a; [reflexivity|cbn in H; lia].
    + apply Hb, ext_cons. split; [reflexivity|]. destruct b; [reflexivity|cbn in H; lia].
  - destruct (Z.eqb_spec x y) as [->|Hxy].
    + destruct (IH a b) as (H1 & H2 & H3 & H4).
      { intros H. apply Ha, ext_cons. now split. }
      { intros H. apply Hb, ext_cons. now split. }
      repeat split; try lia; [cbn [firstn]; now f_equal|].
      intros H. destruct H4 as (x' & y' & ? & ? & ?); [lia|]. exists x', y'. now repeat split.
    + repeat split; try lia. intros _. exists x, y. now repeat split.
Qed.

Lemma shared_len_le p rem : shared_len p rem <= length p.
Proof. apply common_pad_le. Qed.

Lemma shared_len_pf p rem : ~ ext p rem -> ~ ext rem p ->
  shared_len p rem < length p /\
  firstn (shared_len p rem) p = firstn (shared_len p rem) rem /\
  exists x y, nth_error p (shared_len p rem) = Some x /\ nth_error rem (shared_len p rem) = Some y /\ x <> y.
Proof.
  intros H1 H2. destruct (common_pad_pf (length p) p rem H1 H2) as (A & _ & B & C).
  split; [exact A|]. split; [exact B|]. apply C. now left.
Qed.

Lemma shared_len_full p rem : length p <= length rem ->
  (shared_len p rem = length p <-> ext p rem).
Proof.
  intros HL. split.
  - intros H. destruct (ext_dec p rem) as [He|Hn]; [exact He|exfalso].
    destruct (shared_len_pf p rem Hn); [|lia].
    intros He. assert (E : p = rem) by (apply (ext_same_length rem p He); apply ext_length in He; lia).
    apply Hn. rewrite E. apply ext_refl.
  - intros H. apply common_pad_full; [lia|exact HL|]. now rewrite firstn_all.
Qed.

Lemma ext_descend k p pi b : ext pi k -> (shared_len p (skipn (length pi) k) <? length p) = false ->
  nth_error k (length pi + length p) = Some b -> ext (pi ++ p ++ [b]) k.
Proof.
  intros Hext Hsl Hb. apply Nat.ltb_ge in Hsl. assert (Hle := shared_len_le p (skipn (length pi) k)).
  assert (Hd : length pi + length p < length k) by (apply nth_error_Some; congruence).
  assert (Hep : ext p (skipn (length pi) k)) by (apply shared_len_full; [rewrite skipn_length; lia|lia]).
  apply (ext_skipn pi p k Hext) in Hep. rewrite app_assoc. apply ext_snoc; [exact Hep|]. now rewrite app_length.
Qed.

Lemma firstn_pad8 n l : n <= length l -> firstn n (pad8 l) = firstn n l.
Proof.
  intros H. unfold pad8. rewrite firstn_app.
  replace (n - length l) with 0 by lia. cbn [firstn]. apply app_nil_r.
Qed.

Lemma ssorted_nodup l : StronglySorted Z.lt l -> NoDup l.
Proof.
  induction 1 as [|a l H IH HF]; constructor; [|exact IH].
  intros HI. rewrite Forall_forall in HF. specialize (HF a HI). lia.
Qed.

Lemma ssorted_remove_mid l1 : forall (x : Z) l2,
  StronglySorted Z.lt (l1 ++ x :: l2) -> StronglySorted Z.lt (l1 ++ l2).
Proof.
  induction l1 as [|a l1 IH]; intros x l2 H; cbn [app] in *.
  - now apply StronglySorted_inv in H.
  - apply StronglySorted_inv in H. destruct H as [H1 H2]. constructor.
    + eapply IH; exact H1.
    + apply Forall_app in H2. destruct H2 as [H2 H3]. apply Forall_app. split; [exact H2|].
      now apply Forall_cons_iff in H3.
Qed.

Lemma ssorted_length_bound l : forall lo hi,
  StronglySorted Z.lt l -> Forall (fun x => lo <= x < hi)%Z l -> (Z.of_nat (length l) <= Z.max 0 (hi - lo))%Z.
Proof.
  induction l as [|a l IH]; intros lo hi HS HF; cbn [length]; [lia|].
  apply StronglySorted_inv in HS. destruct HS as [HS Ha].
  apply Forall_cons_iff in HF. destruct HF as [Hlo HF].
  assert (HF' : Forall (fun x => a + 1 <= x < hi)%Z l).
  { rewrite Forall_forall in *. intros x Hx. specialize (Ha x Hx). specialize (HF x Hx). lia. }
  specialize (IH (a + 1)%Z hi HS HF'). lia.
Qed.

Lemma keys_sorted_length ch : keys_sorted ch -> Forall (fun bc : Z * node => is_byte_z (fst bc)) ch ->
  length ch <= 256.
Proof.
  intros HS HF. unfold keys_sorted in HS.
  assert (H := ssorted_length_bound (map fst ch) 0 256 HS).
  rewrite map_length in H. apply Nat2Z.inj_le.
  etransitivity; [apply H|]; [|lia].
  apply Forall_map. exact HF.
Qed.

Lemma find_child_some ch : forall b j i c', find_child ch b j = Some (i, c') ->
  exists l1 l2, ch = l1 ++ (b, c') :: l2 /\ i = j + length l1.
Proof.
  induction ch as [|[x c] ch IH]; intros b j i c' H; cbn [find_child] in H; [discriminate|].
  destruct (Z.eqb_spec x b) as [->|Hne].
  - injection H as <- <-. exists [], ch. cbn. split; [reflexivity|lia].
  - destruct (IH _ _ _ _ H) as (l1 & l2 & -> & ->). exists ((x, c) :: l1), l2. cbn. split; [reflexivity|lia].
Qed.

Lemma find_child_none ch : forall b j, find_child ch b j = None -> ~ In b (map fst ch).
Proof.
  induction ch as [|[x c] ch IH]; intros b j H; cbn [find_child map fst In] in *; [tauto|].
  destruct (Z.eqb_spec x b) as [->|Hne]; [discriminate|].
  intros [H1|H1]; [contradiction|]. exact (IH _ _ H H1).
Qed.

Lemma replace_nth_mid {A} (l1 : list A) x y l2 :
  replace_nth (length l1) y (l1 ++ x :: l2) = l1 ++ y :: l2.
Proof. induction l1 as [|a l1 IH]; cbn; [reflexivity|now f_equal]. Qed.

Lemma remove_nth_mid {A} (l1 : list A) x l2 :
  remove_nth (length l1) (l1 ++ x :: l2) = l1 ++ l2.
Proof. induction l1 as [|a l1 IH]; cbn; [reflexivity|now f_equal]. Qed.

Lemma insert_at_perm {A} i (x : A) : forall l, Permutation (insert_at i x l) (x :: l).
Proof.
  induction i as [|i IH]; intros l; cbn [insert_at]; [reflexivity|].
  destruct l as [|y l]; [reflexivity|].
  etransitivity; [apply perm_skip, IH|apply perm_swap].
Qed.

Lemma insert_at_length {A} i (x : A) l : length (insert_at i x l) = S (length l).
Proof. apply (Permutation_length (insert_at_perm i x l)). Qed.

Lemma insert_at_Forall {A} (P : A -> Prop) i x l :
  P x -> Forall P l -> Forall P (insert_at i x l).
Proof.
  intros Hx Hl. rewrite Forall_forall in *. intros y Hy.
  apply (Permutation_in _ (insert_at_perm i x l)) in Hy. destruct Hy as [<-|Hy]; auto.
Qed.

Lemma count_le_zero ch b : Forall (fun y => b < y)%Z (map fst ch) -> count_le ch b = 0.
Proof.
  induction ch as [|[x c] ch IH]; cbn [map fst count_le]; [reflexivity|].
  intros H. apply Forall_cons_iff in H. destruct H as [H1 H2].
  destruct (Z.leb_spec x b); [lia|]. now apply IH.
Qed.

Lemma first_ge_sorted ch b n : keys_sorted ch -> ~ In b (map fst ch) ->
  keys_sorted (insert_at (first_ge ch b) (b, n) ch).
Proof.
  unfold keys_sorted. induction ch as [|[x c] ch IH]; cbn [map fst first_ge insert_at In]; intros HS Hn.
  - repeat constructor.
  - apply StronglySorted_inv in HS. destruct HS as [HS Hx].
    destruct (Z.leb_spec b x) as [Hle|Hlt]; cbn [insert_at map fst].
    + assert (b < x)%Z by (assert (x <> b) by tauto; lia).
      constructor; [constructor; assumption|].
      constructor; [assumption|]. rewrite Forall_forall in *. intros y Hy. specialize (Hx y Hy). lia.
    + constructor; [apply IH; tauto|].
      apply Forall_map. apply insert_at_Forall; [cbn; lia|]. now apply Forall_map.
Qed.

Lemma count_le_first_ge ch b : keys_sorted ch -> ~ In b (map fst ch) -> count_le ch b = first_ge ch b.
Proof.
  unfold keys_sorted. induction ch as [|[x c] ch IH]; cbn [map fst first_ge count_le In]; intros HS Hn; [reflexivity|].
  apply StronglySorted_inv in HS. destruct HS as [HS Hx].
  assert (x <> b) by tauto.
  destruct (Z.leb_spec x b); destruct (Z.leb_spec b x); try lia.
  - f_equal. apply IH; tauto.
  - apply count_le_zero. rewrite Forall_forall in *. intros y Hy. specialize (Hx y Hy). lia.
Qed.

Lemma insert_pos_sorted c ch b n : keys_sorted ch -> ~ In b (map fst ch) ->
  keys_sorted (insert_at (insert_pos c ch b) (b, n) ch).
Proof.
  intros HS Hn. unfold insert_pos.
  destruct c; try now apply first_ge_sorted.
  rewrite count_le_first_ge by assumption. now apply first_ge_sorted.
Qed.

Lemma two_children_perm b1 c1 b2 c2 : Permutation (two_children b1 c1 b2 c2) [(b1, c1); (b2, c2)].
Proof. unfold two_children. destruct (Z.ltb b1 b2); [reflexivity|apply perm_swap]. Qed.

Lemma two_children_sorted b1 c1 b2 c2 : b1 <> b2 -> keys_sorted (two_children b1 c1 b2 c2).
Proof.
  intros H. unfold two_children, keys_sorted. destruct (Z.ltb_spec b1 b2); cbn [map fst].
  - repeat constructor. assumption.
  - repeat constructor. lia.
Qed.

Lemma two_children_length b1 c1 b2 c2 : length (two_children b1 c1 b2 c2) = 2.
Proof. unfold two_children. now destruct (Z.ltb b1 b2). Qed.

Lemma two_children_Forall (P : Z * node -> Prop) b1 c1 b2 c2 :
  P (b1, c1) -> P (b2, c2) -> Forall P (two_children b1 c1 b2 c2).
Proof. intros. unfold two_children. destruct (Z.ltb b1 b2); repeat constructor; assumption. Qed.

Lemma insert_go_leaf f lid lk lv k v id depth n' e :
  insert_go (S f) (Leaf lid lk lv) k v id depth = Ok (Some (n', e)) ->
  e = ELeafSplit /\
  exists pre b1 b2, n' = Inode C4 pre (two_children b1 (Leaf lid lk lv) b2 (Leaf id k v)).
Proof.
  cbn [insert_go]. intros H.
  destruct (lex_compare k lk); [discriminate| |].
  all: destruct (length k <? depth); [discriminate|].
  all: destruct (length lk <? depth); [discriminate|].
  all: destruct (byte_at lk _) as [b1|]; [|discriminate].
  all: destruct (byte_at (skipn depth k) _) as [b2|]; [|discriminate].
  all: injection H as <- <-; split; [reflexivity|]; now eexists _, _, _.
Qed.

Lemma two_elements_other {A} (l1 : list A) x l2 : length (l1 ++ x :: l2) = 2 ->
  exists y, nth_error (l1 ++ x :: l2) (if Nat.eqb (length l1) 0 then 1 else 0) = Some y /\ l1 ++ l2 = [y].
Proof.
  rewrite app_length. cbn [length]. intros H.
  destruct l1 as [|y [|z l1]]; [destruct l2 as [|y [|z l2]]| |]; cbn [length] in H; try lia.
  - exists y. now split.
  - destruct l2; [|cbn [length] in H; lia]. exists y. now split.
Qed.

Lemma add_child_size c n : min_size c <= n <= cap c -> S n <= 256 ->
  (if cls_eqb c C256 then min_size c <= S n <= cap c
   else if Nat.eqb n (cap c) then min_size (larger c) <= S n <= cap (larger c)
   else min_size c <= S n <= cap c).
Proof.
  intros H H256. destruct (cls_eqb c C256) eqn:Ec; [destruct c; try discriminate; cbn in *; lia|].
  destruct (Nat.eqb_spec n (cap c)); [destruct c; try discriminate; cbn in *; lia|lia].
Qed.

Fixpoint node_ind2 (P : node -> Prop)
  (HL : forall id k v, P (Leaf id k v))
  (HI : forall c p ch, Forall (fun bc => P (snd bc)) ch -> P (Inode c p ch))
  (n : node) : P n :=
  match n with
  | Leaf id k v => HL id k v
  | Inode c p ch =>
      HI c p ch
        ((fix go (l : list (Z * node)) : Forall (fun bc => P (snd bc)) l :=
            match l with
            | [] => Forall_nil _
            | (b, c') :: l' => Forall_cons (b, c') (node_ind2 P HL HI c') (go l')
            end) ch)
  end.

Definition cleaves (ch : list (Z * node)) : list entry := flat_map (fun bc => leaves (snd bc)) ch.

Lemma leaves_inode c p ch : leaves (Inode c p ch) = cleaves ch.
Proof.
  unfold cleaves. cbn [leaves].
  induction ch as [|[b c'] ch IH]; cbn [flat_map snd]; [reflexivity|]. now f_equal.
Qed.

Lemma in_cleaves e ch : In e (cleaves ch) <-> exists bc, In bc ch /\ In e (leaves (snd bc)).
Proof. apply in_flat_map. Qed.

Lemma cleaves_perm ch ch' : Permutation ch ch' -> Permutation (cleaves ch) (cleaves ch').
Proof. intros H. unfold cleaves. now apply Permutation_flat_map. Qed.

Lemma cleaves_cons b c ch : cleaves ((b, c) :: ch) = leaves c ++ cleaves ch.
Proof. reflexivity. Qed.

Lemma cleaves_mid l1 x l2 : cleaves (l1 ++ x :: l2) = cleaves l1 ++ leaves (snd x) ++ cleaves l2.
Proof. unfold cleaves. rewrite flat_map_app. reflexivity. Qed.

Lemma cleaves_app l1 l2 : cleaves (l1 ++ l2) = cleaves l1 ++ cleaves l2.
Proof. unfold cleaves. apply flat_map_app. Qed.

Lemma cleaves_mid_perm l1 l2 b c' c'' e :
  Permutation (leaves c'') (e :: leaves c') ->
  Permutation (cleaves (l1 ++ (b, c'') :: l2)) (e :: cleaves (l1 ++ (b, c') :: l2)).
Proof.
  intros H. rewrite !cleaves_mid. cbn [snd].
  etransitivity; [apply Permutation_app_head, Permutation_app_tail, H|].
  cbn [app]. symmetry. apply Permutation_middle.
Qed.

Lemma two_children_leaves c p b1 c1 b2 c2 :
  Permutation (leaves (Inode c p (two_children b1 c1 b2 c2))) (leaves c1 ++ leaves c2).
Proof.
  rewrite leaves_inode. etransitivity; [apply cleaves_perm, two_children_perm|].
  unfold cleaves. cbn [flat_map snd]. now rewrite app_nil_r.
Qed.

Lemma prepend_leaves p sb s : leaves (prepend_prefix p sb s) = leaves s.
Proof. destruct s; [reflexivity|]. cbn [prepend_prefix]. now rewrite !leaves_inode. Qed.

(** Every key below the child carries the child's byte at depth [d]. *)
Definition byte_tag (d : nat) (bc : Z * node) : Prop :=
  forall e, In e (leaves (snd bc)) -> nth_error (fst e) d = Some (fst bc).

Lemma tags_notin d k b ch : Forall (byte_tag d) ch -> nth_error k d = Some b ->
  ~ In b (map fst ch) -> assoc k (cleaves ch) = None.
Proof.
  intros HT Hk Hn. apply assoc_none. intros HI. apply in_map_iff in HI.
  destruct HI as (e & <- & He). apply in_cleaves in He.
  destruct He as (bc & Hin & He). rewrite Forall_forall in HT. specialize (HT _ Hin e He).
  rewrite Hk in HT. injection HT as ->. apply Hn. now apply in_map.
Qed.

Lemma assoc_children d k b ch : Forall (byte_tag d) ch -> nth_error k d = Some b ->
  NoDup (map fst ch) -> forall j,
  assoc k (cleaves ch) = match find_child ch b j with Some (_, c') => assoc k (leaves c') | None => None end.
Proof.
  intros HT Hk. induction ch as [|[x c] ch IH]; intros ND j; [reflexivity|].
  apply Forall_cons_iff in HT. destruct HT as [Hx HT].
  cbn [map fst] in ND. apply NoDup_cons_iff in ND. destruct ND as [Hn ND].
  unfold cleaves. cbn [flat_map snd find_child]. fold (cleaves ch). rewrite assoc_app.
  destruct (Z.eqb_spec x b) as [->|Hne].
  - destruct (assoc k (leaves c)); [reflexivity|]. eapply tags_notin; eassumption.
  - replace (assoc k (leaves c)) with (@None (Z * list Z)); [now apply IH|].
    symmetry. apply assoc_none. intros HI. apply in_map_iff in HI. destruct HI as (e & <- & He).
    specialize (Hx e He). cbn [fst snd] in Hx. congruence.
Qed.

Lemma tags_nodup d ch : Forall (byte_tag d) ch -> NoDup (map fst ch) ->
  Forall (fun bc => NoDup (map fst (leaves (snd bc)))) ch -> NoDup (map fst (cleaves ch)).
Proof.
  induction ch as [|[x c] ch IH]; intros HT ND HN; [constructor|].
  apply Forall_cons_iff in HT. destruct HT as [Hx HT].
  apply Forall_cons_iff in HN. destruct HN as [Hc HN].
  cbn [map fst] in ND. apply NoDup_cons_iff in ND. destruct ND as [Hn ND].
  unfold cleaves. cbn [flat_map snd]. fold (cleaves ch). rewrite map_app.
  apply NoDup_app_intro; [exact Hc|now apply IH|].
  intros k Hk1 Hk2. apply in_map_iff in Hk1. destruct Hk1 as (e & <- & He).
  specialize (Hx e He). cbn [fst snd] in Hx.
  assert (HA := tags_notin d (fst e) x ch HT Hx Hn). apply assoc_none in HA. contradiction.
Qed.

Definition keys_all (P : list Z -> Prop) (l : list entry) : Prop := Forall (fun e : entry => P (fst e)) l.

Lemma keys_all_in P l e : keys_all P l -> In e l -> P (fst e).
Proof. unfold keys_all. rewrite Forall_forall. auto. Qed.

Lemma keys_all_impl (P Q : list Z -> Prop) l : (forall k, P k -> Q k) -> keys_all P l -> keys_all Q l.
Proof. intros H. apply Forall_impl. intros e. apply H. Qed.

Lemma keys_all_perm P l l' : Permutation l l' -> keys_all P l' -> keys_all P l.
Proof. unfold keys_all. intros HP H. rewrite Forall_forall in *. intros e He. apply H. eapply Permutation_in; eassumption. Qed.

Lemma keys_all_sremove P k l : keys_all P l -> keys_all P (sremove k l).
Proof.
  induction 1 as [|[k2 x] l H1 H2 IH]; cbn [sremove]; [constructor|].
  destruct (lex_eqb k k2); [exact IH|now constructor].
Qed.

Lemma keys_all_transfer P l l' : (forall k, assoc k l = assoc k l') -> keys_all P l -> keys_all P l'.
Proof.
  unfold keys_all. intros Hag H. rewrite Forall_forall in *. intros e He.
  destruct (assoc_in_keys (fst e) l') as [x Hx]; [now apply in_map|].
  rewrite <- Hag in Hx. apply assoc_some_in in Hx. exact (H _ Hx).
Qed.

Lemma keys_all_mid P l1 x l2 : keys_all P (cleaves (l1 ++ x :: l2)) -> keys_all P (leaves (snd x)).
Proof. unfold keys_all. rewrite cleaves_mid, !Forall_app. tauto. Qed.

Lemma keys_all_child P ch bc : keys_all P (cleaves ch) -> In bc ch -> keys_all P (leaves (snd bc)).
Proof. intros H Hin. destruct (in_split _ _ Hin) as (l1 & l2 & ->). exact (keys_all_mid P l1 bc l2 H). Qed.

Lemma spec_step_keys P s o : keys_all P (fst s) -> (forall k, op_key o = Some k -> P k) ->
  keys_all P (fst (fst (spec_step s o))).
Proof.
  destruct s as [l nid]. intros Hs Ho.
  destruct o as [k|k v|k| |]; cbn [spec_step op_key fst] in *; try exact Hs.
  - destruct (assoc k l); cbn [fst]; [exact Hs|]. constructor; [apply Ho; reflexivity|exact Hs].
  - destruct (assoc k l); cbn [fst]; [|exact Hs]. now apply keys_all_sremove.
  - constructor.
Qed.

Definition WFch (L : nat) (pi p : list Z) (ch : list (Z * node)) : Prop :=
  Forall (fun bc => is_byte_z (fst bc) /\ WF L (snd bc) (pi ++ p ++ [fst bc])) ch.

Lemma WF_inode L c p ch pi :
  WF L (Inode c p ch) pi <->
  length pi + length p < L /\ length p <= prefix_capacity /\ Forall is_byte_z p /\
  keys_sorted ch /\ (min_size c <= length ch <= cap c) /\ WFch L pi p ch.
Proof.
  cbn [WF].
  assert (H : (fix wfl (l : list (Z * node)) : Prop :=
         match l with
         | [] => True
         | (b, c') :: l' => is_byte_z b /\ WF L c' (pi ++ p ++ [b]) /\ wfl l'
         end) ch <-> WFch L pi p ch).
  { unfold WFch. induction ch as [|[b c'] ch IH].
    - split; [constructor|trivial].
    - rewrite Forall_cons_iff. cbn [fst snd]. rewrite <- IH. tauto. }
  rewrite H. tauto.
Qed.

Lemma WF_leaf L id k v pi : WF L (Leaf id k v) pi <-> key_ok L k /\ ext pi k.
Proof. reflexivity. Qed.

Global Opaque WF.
