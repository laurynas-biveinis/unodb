(** Keys of one fixed length L in 1..8 (64-bit integer keys: L = 8) as an
    instance of the theorems on prefix-free keys: keys of equal length are
    prefix-free, keys of at most 8 bytes never need more than 7 prefix bytes,
    and [WF L] is [WFg] on keys of length L.  The statements over [WF L] are
    derived here, for C01 and for the OLC refinement, which speak of [WF L]. *)
From Coq Require Import List ZArith Bool Lia Sorted Permutation.
From Unodb Require Import Base.Lex Art.ArtModel Art.ArtSpec Art.ArtInv Art.ArtLemmas
  Art.ArtGenInv Art.ArtGenLemmas Art.ArtGenProofs Art.ArtGenRun Art.ArtGenShort.
Import ListNotations.

Lemma key_ok_short L k : L <= 8 -> key_ok L k -> short_key k.
Proof. unfold short_key, prefix_capacity. intros HL [-> _]. lia. Qed.

Lemma op_ok_key L o : op_ok L o -> forall k, op_key o = Some k -> key_ok L k.
Proof. unfold op_ok. intros H k E. now rewrite E in H. Qed.

Lemma op_ok_short L o : L <= 8 -> op_ok L o -> op_short o.
Proof.
  unfold op_short. intros HL Ho. destruct (op_key o) as [k|] eqn:E; [|exact I].
  exact (key_ok_short L k HL (op_ok_key L o Ho k E)).
Qed.

Lemma op_pf_fixed L s o : keys_all (key_ok L) (fst s) -> op_ok L o -> op_pf s o = true.
Proof.
  intros Hs Ho. unfold op_pf. destruct (op_key o) as [k|] eqn:E; [|reflexivity].
  assert (Hk := op_ok_key L o Ho k E). apply andb_true_iff. split; [apply bytesb_iff, Hk|].
  apply pfreeb_iff. exact (key_ok_pfk L k _ Hk Hs).
Qed.

Lemma hist_pf_fixed L : forall ops s, keys_all (key_ok L) (fst s) -> Forall (op_ok L) ops ->
  hist_pf s ops = true.
Proof.
  induction ops as [|o ops IH]; intros s Hs Hops; [reflexivity|].
  apply Forall_cons_iff in Hops. destruct Hops as [Ho Hops]. cbn [hist_pf].
  rewrite (op_pf_fixed L s o Hs Ho). apply IH; [|exact Hops].
  apply spec_step_keys; [exact Hs|]. exact (op_ok_key L o Ho).
Qed.

Theorem fixed_length_hist_ok : forall L sz ops, (1 <= L <= 8)%nat -> Forall (op_ok L) ops ->
  hist_ok sz db0 ([], 0%Z) ops = true.
Proof.
  intros L sz ops HL Hops. apply short_keys_hist_ok.
  - eapply Forall_impl; [|exact Hops]. intros o. apply op_ok_short. lia.
  - apply (hist_pf_fixed L); [constructor|exact Hops].
Qed.

Theorem db_WF_WFg : forall L d, db_WF L d -> db_WFg d.
Proof. intros L d H. now apply db_WF_iff in H. Qed.

Lemma inode_prelude L k c p ch pi : key_ok L k -> WF L (Inode c p ch) pi -> ext pi k ->
  (length k <? length pi) = false /\
  length p <= length (skipn (length pi) k) /\
  ((shared_len p (skipn (length pi) k) < length p /\
    assoc k (leaves (Inode c p ch)) = None)
   \/
   (shared_len p (skipn (length pi) k) = length p /\
    exists b, nth_error k (length pi + length p) = Some b /\ is_byte_z b /\
              ext (pi ++ p ++ [b]) k /\
              assoc k (leaves (Inode c p ch)) =
              match find_child ch b 0 with Some (_, c') => assoc k (leaves c') | None => None end)).
Proof.
  intros Hk HWF Hext.
  destruct (inode_prelude_g k c p ch pi (WF_WFg _ _ _ HWF) Hext (WF_pfk _ _ _ _ HWF Hk)) as (H1 & H2).
  split; [exact H1|]. split.
  { apply WF_inode in HWF. destruct Hk as [Hk _]. rewrite skipn_length. lia. }
  destruct H2 as [(A & B & _)|(A & b & B & C & D)]; [left; now split|right].
  split; [exact A|]. exists b. split; [exact B|]. split; [|now split].
  exact (Forall_nth_error is_byte_z k _ b (proj2 Hk) B).
Qed.

Lemma child_of_WF L c p l1 b c' l2 pi :
  WF L (Inode c p (l1 ++ (b, c') :: l2)) pi -> is_byte_z b /\ WF L c' (pi ++ p ++ [b]).
Proof.
  intros HWF. apply WF_inode in HWF. destruct HWF as (_ & _ & _ & _ & _ & Hch).
  unfold WFch in Hch. rewrite Forall_forall in Hch. apply (Hch (b, c')), in_elt.
Qed.

Lemma insert_go_correct L k v id : 1 <= L <= 8 -> key_ok L k -> forall fuel n pi,
  WF L n pi -> ext pi k -> L - length pi < fuel ->
  match assoc k (leaves n) with
  | Some _ => insert_go fuel n k v id (length pi) = Ok None
  | None => exists n' e, insert_go fuel n k v id (length pi) = Ok (Some (n', e)) /\ WF L n' pi /\
                         Permutation (leaves n') ((k, (id, v)) :: leaves n)
  end.
Proof.
  intros HL Hk fuel n pi HWF Hext Hf.
  assert (Hpf := WF_pfk _ _ _ _ HWF Hk). apply WF_iff in HWF. destruct HWF as [Hg Hlen].
  assert (Hfits : insert_fits fuel n k (length pi) = true).
  { apply insert_fits_short; try assumption; [apply (key_ok_short L); [lia|exact Hk]|].
    eapply keys_all_impl; [|exact Hlen]. unfold short_key, prefix_capacity. intros; lia. }
  assert (H := insert_go_correct_g k v id (proj2 Hk) fuel n pi Hg Hext Hpf
                 ltac:(destruct Hk as [-> _]; exact Hf) Hfits).
  destruct (assoc k (leaves n)); [exact H|].
  destruct H as (n' & e & E & W & P). exists n', e. split; [exact E|]. split; [|exact P].
  apply WF_iff. split; [exact W|]. apply (keys_all_perm _ _ _ P). constructor; [exact (proj1 Hk)|exact Hlen].
Qed.

Lemma fuel_ok L k : key_ok L k -> L - length (@nil Z) < fuel_for k.
Proof. intros [<- _]. apply fuel_ok_g. Qed.

Lemma db_get_correct L d k : db_WF L d -> key_ok L k -> db_get d k = Ok (assoc k (db_leaves d)).
Proof.
  intros HWF Hk. apply db_get_correct_g; [exact (db_WF_WFg L d HWF)|].
  exact (key_ok_pfk L k _ Hk (db_WF_keys L d HWF)).
Qed.

Definition Inv (L : nat) (d : db) (s : sstate) : Prop :=
  db_WF L d /\ next_id d = snd s /\ Forall (fun e : entry => key_ok L (fst e)) (fst s) /\
  forall k, key_ok L k -> assoc k (fst s) = assoc k (db_leaves d).

(** both sides hold keys of length L only, so they agree on every key *)
Lemma Inv_Invg L d s : Inv L d s -> Invg d s.
Proof.
  intros (HWF & Hn & Hk & Hag). split; [exact (db_WF_WFg L d HWF)|]. split; [exact Hn|]. intros k.
  assert (HK := db_WF_keys L d HWF).
  destruct (assoc k (fst s)) as [x|] eqn:E1.
  - rewrite <- E1. apply Hag. apply assoc_some_in in E1. exact (keys_all_in _ _ _ Hk E1).
  - destruct (assoc k (db_leaves d)) as [y|] eqn:E2; [|reflexivity].
    rewrite <- E1, <- E2. apply Hag. apply assoc_some_in in E2. exact (keys_all_in _ _ _ HK E2).
Qed.

Lemma Invg_Inv L d s : Invg d s -> keys_all (key_ok L) (fst s) -> Inv L d s.
Proof.
  intros (HWF & Hn & Hag) Hk.
  split; [|split; [exact Hn|split; [exact Hk|intros k _; apply Hag]]].
  apply db_WF_iff. split; [exact HWF|]. apply (keys_all_transfer _ _ _ Hag).
  eapply keys_all_impl; [|exact Hk]. now intros k [H _].
Qed.

Lemma step_correct L sz d s o : 1 <= L <= 8 -> Inv L d s -> op_ok L o ->
  snd (step sz d o) = snd (spec_step s o) /\ Inv L (fst (step sz d o)) (fst (spec_step s o)).
Proof.
  intros HL HI Ho. assert (Hg := Inv_Invg _ _ _ HI). destruct HI as (_ & _ & Hk & _).
  assert (Hpf := op_pf_fixed L s o Hk Ho).
  assert (Hfit : op_fits d o = true).
  { apply (op_fits_short d s o Hg); [|apply (op_ok_short L); [lia|exact Ho]|exact Hpf].
    eapply keys_all_impl; [|exact Hk]. intros k. apply key_ok_short. lia. }
  destruct (step_correct_g sz d s o Hg Hpf Hfit) as [H1 H2]. split; [exact H1|].
  apply Invg_Inv; [exact H2|]. apply spec_step_keys; [exact Hk|]. exact (op_ok_key L o Ho).
Qed.

Lemma Inv_init L : Inv L db0 ([], 0%Z).
Proof. apply Invg_Inv; [exact Invg_init|constructor]. Qed.

Theorem run_refines_spec : forall L sz ops, (1 <= L <= 8)%nat -> Forall (op_ok L) ops ->
  run sz db0 ops = spec_run ([], 0%Z) ops.
Proof. intros L sz ops HL Hops. apply run_refines_spec_g. now apply (fixed_length_hist_ok L). Qed.

Theorem run_state_invariant : forall L sz ops, (1 <= L <= 8)%nat -> Forall (op_ok L) ops ->
  let d := run_state sz db0 ops in
  db_WF L d /\ keys_nodup (db_leaves d) /\
  forall k, key_ok L k -> db_get d k = Ok (assoc k (db_leaves d)).
Proof.
  intros L sz ops HL Hops d.
  destruct (run_correct_g sz ops db0 _ Invg_init (fixed_length_hist_ok L sz ops HL Hops)) as [_ HI].
  fold d in HI. apply (Invg_Inv L) in HI.
  - destruct HI as (HWF & _). split; [exact HWF|]. split; [exact (db_leaves_nodup_g d (db_WF_WFg L d HWF))|].
    intros k. now apply db_get_correct.
  - apply spec_state_keys; [constructor|]. eapply Forall_impl; [|exact Hops]. exact (op_ok_key L).
Qed.

Theorem spec_step_keeps_entry : forall s o k x,
  assoc k (fst s) = Some x ->
  (match o with ORemove k' => k' <> k | OClear => False | _ => True end) ->
  assoc k (fst (fst (spec_step s o))) = Some x.
Proof.
  intros [l nid] o k x Hass Ho. cbn [fst] in Hass.
  destruct o as [k0|k0 v|k0| |]; cbn [spec_step].
  - exact Hass.
  - destruct (assoc k0 l) eqn:E; cbn [fst]; [exact Hass|].
    cbn [assoc]. destruct (lex_eqb k k0) eqn:Heq; [|exact Hass].
    apply lex_eqb_eq in Heq. subst k0. congruence.
  - destruct (assoc k0 l) eqn:E; cbn [fst]; [|exact Hass].
    rewrite assoc_sremove. rewrite lex_eqb_neq by congruence. exact Hass.
  - exact Hass.
  - contradiction.
Qed.

Theorem long_shared_run_refuted : exists sz ops, run sz db0 ops <> spec_run ([], 0%Z) ops.
Proof. exists ex_sizes, k1_ops. apply k1_diverges. Qed.
