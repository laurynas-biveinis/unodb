(** Canonical shape of trees over keys of one fixed length L, as instances of
    the theorems on prefix-free keys. *)
From Coq Require Import List ZArith Bool Lia.
From Unodb Require Import Base.Lex Art.ArtModel Art.ArtSpec Art.ArtInv Art.ArtScanSpec
  Art.ArtGenInv Art.ArtGenLemmas Art.ArtGenShape.
Import ListNotations.

Theorem class_by_fanout : forall L c p ch pi, WF L (Inode c p ch) pi ->
  c = (if (length ch <=? 4) then C4 else if (length ch <=? 16) then C16
       else if (length ch <=? 48) then C48 else C256) /\ (2 <= length ch <= 256).
Proof. intros L c p ch pi H. exact (class_by_fanout_g c p ch pi (WF_WFg _ _ _ H)). Qed.

Theorem shape_unique : forall L t1 t2 pi, (1 <= L <= 8) -> WF L t1 pi -> WF L t2 pi ->
  kvs (leaves t1) = kvs (leaves t2) -> erase t1 = erase t2.
Proof. intros L t1 t2 pi _ H1 H2. exact (shape_unique_g t1 t2 pi (WF_WFg _ _ _ H1) (WF_WFg _ _ _ H2)). Qed.
