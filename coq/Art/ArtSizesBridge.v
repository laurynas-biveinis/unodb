(** Bridge from the compile-time node-size constants (Gen/GenSizes.v: clang
    folds [basic_inode<...>::capacity], [::min_size], the capacities of
    [larger_derived_type] / [smaller_derived_type], [key_prefix_capacity] and
    inode_48's [empty_child] for db / olc_db x u64 / key_view keys; the four
    configurations must agree) to the constants of Art/ArtModel.v. *)
From Coq Require Import ZArith Lia.
From Unodb Require Import Art.ArtModel Gen.GenSizes Gen.GenKeyPrefix.
Local Open Scope Z_scope.

Lemma sizes_capacities :
  Z.of_nat (cap C4) = gs_i4_capacity /\ Z.of_nat (cap C16) = gs_i16_capacity /\
  Z.of_nat (cap C48) = gs_i48_capacity /\ Z.of_nat (cap C256) = gs_i256_capacity.
Proof. repeat split; reflexivity. Qed.

Lemma sizes_min_sizes :
  Z.of_nat (min_size C4) = gs_i4_min_size /\ Z.of_nat (min_size C16) = gs_i16_min_size /\
  Z.of_nat (min_size C48) = gs_i48_min_size /\ Z.of_nat (min_size C256) = gs_i256_min_size.
Proof. repeat split; reflexivity. Qed.

Lemma sizes_larger_smaller :
  Z.of_nat (cap (larger C4)) = gs_i4_larger_capacity /\ Z.of_nat (cap (larger C16)) = gs_i16_larger_capacity /\
  Z.of_nat (cap (larger C48)) = gs_i48_larger_capacity /\
  Z.of_nat (cap (smaller C16)) = gs_i16_smaller_capacity /\ Z.of_nat (cap (smaller C48)) = gs_i48_smaller_capacity /\
  Z.of_nat (cap (smaller C256)) = gs_i256_smaller_capacity.
Proof. repeat split; reflexivity. Qed.

Lemma sizes_min_is_smaller_cap_plus_1 :
  (forall c, c <> C256 -> min_size (larger c) = S (cap c)) /\
  gs_i16_min_size = gs_i4_capacity + 1 /\ gs_i48_min_size = gs_i16_capacity + 1 /\
  gs_i256_min_size = gs_i48_capacity + 1.
Proof. split; [intros [] H; try reflexivity; congruence|repeat split; reflexivity]. Qed.

Lemma sizes_min_below_cap : forall c, (2 <= min_size c < cap c)%nat.
Proof. intros []; cbn; lia. Qed.

Lemma sizes_prefix_capacity :
  Z.of_nat prefix_capacity = gs_key_prefix_capacity /\ gs_key_prefix_capacity = kp_capacity.
Proof. split; reflexivity. Qed.

(** the inode_48 "no child" marker is a byte that is not a slot index *)
Lemma sizes_empty_child : Z.of_nat (cap C48) <= gs_i48_empty_child < 256.
Proof. cbn. unfold gs_i48_empty_child. lia. Qed.
