(** What one insert or remove step does to any quantity that adds up over
    the tree (Section Measure).  The node statistics are three such
    quantities, so the counters equal them after every history, whatever its
    keys (a failing step leaves the state unchanged); no invariant of the
    tree is involved. *)
From Coq Require Import List ZArith Bool Lia.
From Unodb Require Import Base.Lex Art.ArtModel Art.ArtSpec Art.ArtLemmas Art.ArtScanSpec.
Import ListNotations.
Local Open Scope Z_scope.

Definition insert_root (r : option node) (id : Z) (k v : list Z) : res (option (node * ev)) :=
  match r with
  | None => Ok (Some (Leaf id k v, ERootLeaf))
  | Some n => insert_go (fuel_for k) n k v id O
  end.

Definition remove_root (r : option node) (k : list Z) : res (option (option node * ev * (list Z * list Z))) :=
  match r with
  | None => Ok None
  | Some (Leaf _ lk lv) =>
      Ok (match lex_compare k lk with Eq => Some (None, ERemoveRoot, (lk, lv)) | _ => None end)
  | Some n =>
      g <- get_go (fuel_for k) n k O ;;
      r <- remove_go (fuel_for k) n k O ;;
      match r, g with
      | RmReplaced n' e, Some (_, v) => Ok (Some (Some n', e, (k, v)))
      | RmReplaced _ _, None => Err Malformed
      | RmNotFound, _ => Ok None
      end
  end.

Lemma step_insert sz d k v :
  step sz d (OInsert k v) =
  match insert_root (root d) (next_id d) k v with
  | Ok (Some (n', e)) =>
      ({| root := Some n'; next_id := next_id d + 1; st := stats_insert sz (st d) e k v |}, RBool true)
  | Ok None => (d, RBool false)
  | Err er => (d, RErr er)
  end.
Proof.
  cbn [step]. unfold db_insert, insert_root.
  destruct (root d); [destruct (insert_go _ _ _ _ _ _) as [[[n' e]|]|er]|]; reflexivity.
Qed.

Lemma step_remove sz d k :
  step sz d (ORemove k) =
  match remove_root (root d) k with
  | Ok (Some (r', e, (lk, lv))) =>
      ({| root := r'; next_id := next_id d; st := stats_remove sz (st d) e lk lv |}, RBool true)
  | Ok None => (d, RBool false)
  | Err er => (d, RErr er)
  end.
Proof.
  cbn [step]. unfold db_remove, remove_root. destruct (root d) as [[lid lk lv|c p ch]|]; [| |reflexivity].
  - destruct (lex_compare k lk); reflexivity.
  - destruct (get_go _ _ _ _) as [[[gid gv]|]|er]; [| |reflexivity];
      (destruct (remove_go _ _ _ _) as [[|n' e]|er]; reflexivity).
Qed.

Definition csum (f : node -> Z) (ch : list (Z * node)) : Z :=
  fold_right (fun bc a => f (snd bc) + a) 0 ch.

Lemma csum_app f l1 l2 : csum f (l1 ++ l2) = csum f l1 + csum f l2.
Proof. unfold csum. induction l1 as [|x l1 IH]; cbn [fold_right app]; lia. Qed.

Lemma csum_cons f x l : csum f (x :: l) = f (snd x) + csum f l.
Proof. reflexivity. Qed.

Lemma csum_nonneg f ch : (forall n, 0 <= f n) -> 0 <= csum f ch.
Proof. intros H. induction ch as [|x ch IH]; [apply Z.le_refl|]. rewrite csum_cons. specialize (H (snd x)). lia. Qed.

Lemma csum_insert_at f i x : forall l, csum f (insert_at i x l) = f (snd x) + csum f l.
Proof.
  induction i as [|i IH]; intros l; cbn [insert_at]; [reflexivity|].
  destruct l as [|y l]; [reflexivity|]. rewrite !csum_cons, IH. lia.
Qed.

Lemma csum_two f b1 c1 b2 c2 : csum f (two_children b1 c1 b2 c2) = f c1 + f c2.
Proof. unfold two_children. destruct (b1 <? b2); cbn; lia. Qed.

Definition wcount (c0 : cls) : cls -> Z := fun c => if cls_eqb c c0 then 1 else 0.

Lemma count_cls_inode c0 c p ch : count_cls c0 (Inode c p ch) = wcount c0 c + csum (count_cls c0) ch.
Proof.
  cbn [count_cls]. f_equal. induction ch as [|[b c'] ch IH]; [reflexivity|]. rewrite csum_cons. cbn [snd]. now f_equal.
Qed.

Lemma tree_mem_inode sz c p ch : tree_mem sz (Inode c p ch) = sz_of sz c + csum (tree_mem sz) ch.
Proof.
  cbn [tree_mem]. f_equal. induction ch as [|[b c'] ch IH]; [reflexivity|]. rewrite csum_cons. cbn [snd]. now f_equal.
Qed.

Definition lcount (n : node) : Z := Z.of_nat (length (leaves n)).

Lemma lcount_inode c p ch : lcount (Inode c p ch) = 0 + csum lcount ch.
Proof.
  unfold lcount. rewrite leaves_inode. unfold cleaves.
  induction ch as [|x ch IH]; [reflexivity|]. cbn [flat_map]. rewrite csum_cons, app_length, Nat2Z.inj_add. lia.
Qed.

Definition ins_ev (e : ev) : bool :=
  match e with ERootLeaf | ELeafSplit | EPrefixSplit | EAdd _ | EGrow _ => true | _ => false end.

(** A step changes the tree at one site: an inner node of weight [ins_old e]
    ([rem_old e]) goes, one of weight [ins_new e] ([rem_new e]) comes, and a
    leaf comes (goes).  That what goes was in the tree is stated as a bound,
    for [nonneg] measures. *)
Section Measure.
  Variables (m : node -> Z) (w : cls -> Z) (lf : list Z -> list Z -> Z).
  Hypothesis Hleaf : forall id k v, m (Leaf id k v) = lf k v.
  Hypothesis Hinode : forall c p ch, m (Inode c p ch) = w c + csum m ch.

  Definition rootm (r : option node) : Z := match r with Some n => m n | None => 0 end.
  Definition nonneg : Prop := (forall c, 0 <= w c) /\ (forall n, 0 <= m n).

  Definition ins_old (e : ev) : Z := match e with EGrow c => w (smaller c) | _ => 0 end.
  Definition ins_new (e : ev) : Z :=
    match e with ELeafSplit | EPrefixSplit => w C4 | EGrow c => w c | _ => 0 end.
  Definition rem_old (e : ev) : Z := match e with EShrink c => w c | _ => 0 end.
  Definition rem_new (e : ev) : Z :=
    match e with EShrink C4 => 0 | EShrink c => w (smaller c) | _ => 0 end.

  Lemma m_prefix c p p' ch : m (Inode c p ch) = m (Inode c p' ch).
  Proof. now rewrite !Hinode. Qed.

  Lemma m_prepend p sb s : m (prepend_prefix p sb s) = m s.
  Proof. destruct s as [id k v|c p3 ch]; [reflexivity|apply m_prefix]. Qed.

  Lemma insert_go_measure k v id : forall fuel n depth n' e,
    insert_go fuel n k v id depth = Ok (Some (n', e)) ->
    ins_ev e = true /\ m n' = m n - ins_old e + ins_new e + lf k v /\ (nonneg -> ins_old e <= m n).
  Proof.
    induction fuel as [|f IH]; intros n depth n' e H; [discriminate|].
    destruct n as [lid lk lv|c p ch].
    - apply insert_go_leaf in H. destruct H as (-> & pre & b1 & b2 & ->).
      rewrite Hinode, csum_two, !Hleaf. cbn [ins_old ins_new].
      repeat split; [lia|]. intros [_ Hm]. rewrite <- (Hleaf lid). apply Hm.
    - cbn [insert_go] in H. destruct (length k <? depth)%nat; [discriminate|]. cbv zeta in H.
      destruct (shared_len p (skipn depth k) <? length p)%nat.
      + destruct (byte_at p _) as [sb|]; [|discriminate]. cbn [bind] in H.
        destruct (byte_at k _) as [nb|]; [|discriminate]. cbn [bind] in H.
        injection H as <- <-. rewrite Hinode, csum_two, (m_prefix c _ p), Hleaf.
        cbn [ins_old ins_new]. repeat split; [lia|]. intros [_ Hm]. apply Hm.
      + destruct (byte_at k _) as [b|]; [|discriminate]. cbn [bind] in H.
        destruct (find_child ch b 0) as [[i c']|] eqn:Hfc.
        * apply find_child_some in Hfc. destruct Hfc as (l1 & l2 & -> & ->). cbn [Nat.add] in H.
          destruct (insert_go f c' k v id _) as [[[c'' e']|]|] eqn:Hins; cbn [bind] in H; try discriminate.
          injection H as <- <-. destruct (IH _ _ _ _ Hins) as (He & Hm & Hold).
          rewrite replace_nth_mid, !Hinode, !csum_app, !csum_cons. cbn [snd].
          repeat split; [exact He|lia|]. intros Hnn. specialize (Hold Hnn). destruct Hnn as [Hw Hnn].
          assert (A1 := csum_nonneg m l1 Hnn). assert (A2 := csum_nonneg m l2 Hnn). specialize (Hw c). lia.
        * assert (Hadd : forall c2, m (Inode c2 p (insert_at (insert_pos c ch b) (b, Leaf id k v) ch)) =
                                    m (Inode c p ch) - w c + w c2 + lf k v).
          { intros c2. rewrite !Hinode, csum_insert_at. cbn [snd]. rewrite Hleaf. lia. }
          destruct (cls_eqb c C256) eqn:Hc; [|destruct (Nat.eqb (length ch) (cap c))];
            injection H as <- <-; rewrite Hadd; cbn [ins_ev ins_old ins_new];
            (repeat split; [|intros [Hw Hm]]); try lia; try apply Hm.
          -- destruct c; try discriminate; cbn [larger smaller]; lia.
          -- rewrite Hinode. assert (A := csum_nonneg m ch Hm). destruct c; try discriminate; cbn [larger smaller]; lia.
  Qed.

  Lemma remove_go_measure k : forall fuel n depth g n' e,
    get_go fuel n k depth = Ok g -> remove_go fuel n k depth = Ok (RmReplaced n' e) ->
    exists lid lv, g = Some (lid, lv) /\
      m n = m n' - rem_new e + rem_old e + lf k lv /\ (nonneg -> rem_old e + lf k lv <= m n).
  Proof.
    induction fuel as [|f IH]; intros n depth g n' e Hg H; [discriminate|].
    destruct n as [lid lk lv|c p ch]; cbn [remove_go] in H; [discriminate|]. cbn [get_go] in Hg.
    destruct (length k <? depth)%nat; [discriminate|]. cbv zeta in H, Hg.
    destruct (shared_len p (skipn depth k) <? length p)%nat; [discriminate|].
    destruct (byte_at k _) as [b|]; [|discriminate]. cbn [bind] in H, Hg.
    destruct (find_child ch b 0) as [[i c']|] eqn:Hfc; [|discriminate].
    apply find_child_some in Hfc. destruct Hfc as (l1 & l2 & -> & ->). cbn [Nat.add] in H.
    assert (Hnn : nonneg -> 0 <= w c /\ 0 <= csum m l1 /\ 0 <= csum m l2).
    { intros [Hw Hm]. auto using csum_nonneg. }
    rewrite (Hinode c p), csum_app, csum_cons. cbn [snd].
    destruct c' as [lid lk lv|c3 p3 ch3].
    - destruct f as [|f']; [discriminate|]. cbn [get_go] in Hg.
      destruct (lex_compare k lk) eqn:Hcmp; try discriminate.
      apply lex_compare_eq in Hcmp. subst lk. injection Hg as <-.
      exists lid, lv. split; [reflexivity|]. rewrite Hleaf.
      destruct (Nat.eqb_spec (length (l1 ++ (b, Leaf lid k lv) :: l2)) (min_size c)) as [Hmin|Hmin]; [destruct c|].
      1:{ (* collapse: what is left of the node is the other child *)
          destruct (two_elements_other _ _ _ Hmin) as ([sb s] & Hnth & Hrest).
          rewrite Hnth in H. injection H as <- <-.
          assert (Hc : csum m l1 + csum m l2 = m s) by (rewrite <- csum_app, Hrest; cbn; lia).
          rewrite m_prepend. cbn [rem_old rem_new]. split; [lia|]. intros N. apply Hnn in N. lia. }
      all: injection H as <- <-; rewrite remove_nth_mid, Hinode, csum_app; cbn [rem_old rem_new smaller];
        (split; [lia|]); intros N; apply Hnn in N; lia.
    - destruct (remove_go f (Inode c3 p3 ch3) k _) as [[|c'' e']|] eqn:Hrm; cbn [bind] in H; try discriminate.
      injection H as <- <-.
      destruct (IH _ _ _ _ _ Hg Hrm) as (lid & lv & -> & Hm & Hold).
      exists lid, lv. split; [reflexivity|].
      rewrite replace_nth_mid, (Hinode c p), !csum_app, !csum_cons. cbn [snd].
      split; [lia|]. intros N. specialize (Hold N). apply Hnn in N. lia.
  Qed.

  Lemma insert_root_measure r id k v n' e : insert_root r id k v = Ok (Some (n', e)) ->
    ins_ev e = true /\ m n' = rootm r - ins_old e + ins_new e + lf k v /\ (nonneg -> ins_old e <= rootm r).
  Proof.
    destruct r as [n|]; cbn [insert_root rootm]; [apply insert_go_measure|].
    intros H. injection H as <- <-. rewrite Hleaf. cbn [ins_ev ins_old ins_new]. repeat split; lia.
  Qed.

  Lemma remove_root_measure r k r' e lk lv : remove_root r k = Ok (Some (r', e, (lk, lv))) ->
    rootm r = rootm r' - rem_new e + rem_old e + lf lk lv /\ (nonneg -> rem_old e + lf lk lv <= rootm r).
  Proof.
    destruct r as [[lid lk' lv'|c p ch]|]; cbn [remove_root]; [| |discriminate].
    - destruct (lex_compare k lk'); try discriminate. intros H. injection H as <- <- <- <-.
      cbn [rootm rem_old rem_new]. rewrite Hleaf. split; lia.
    - destruct (get_go _ _ _ _) as [g|] eqn:Hg; [|discriminate]. cbn [bind].
      destruct (remove_go _ _ _ _) as [[|n' e']|] eqn:Hr; cbn [bind]; try discriminate.
      destruct (remove_go_measure _ _ _ _ _ _ _ Hg Hr) as (lid & lv' & -> & A).
      intros H. injection H as <- <- <- <-. exact A.
  Qed.

  Variables (sz : sizes) (f : stats -> Z).
  Hypothesis f_insert : forall s e k v, f (stats_insert sz s e k v) = f s - ins_old e + ins_new e + lf k v.
  Hypothesis f_remove : forall s e k v, f s = f (stats_remove sz s e k v) - rem_new e + rem_old e + lf k v.
  Hypothesis f_clear : forall s, f (stats_clear s) = 0.

  Lemma step_tracks d o :
    f (st d) = rootm (root d) -> f (st (fst (step sz d o))) = rootm (root (fst (step sz d o))).
  Proof.
    intros HI. destruct o as [k|k v|k| |]; [exact HI| | |exact HI|apply f_clear].
    - rewrite step_insert. destruct (insert_root _ _ k v) as [[[n' e]|]|er] eqn:H; [|exact HI|exact HI].
      destruct (insert_root_measure _ _ _ _ _ _ H) as (_ & A & _).
      cbn [fst st root rootm]. rewrite f_insert, HI, A. reflexivity.
    - rewrite step_remove. destruct (remove_root _ k) as [[[[r' e] [lk lv]]|]|er] eqn:H; [|exact HI|exact HI].
      destruct (remove_root_measure _ _ _ _ _ _ H) as (A & _).
      cbn [fst st root]. rewrite (f_remove (st d) e lk lv) in HI. lia.
  Qed.
End Measure.

Lemma insert_root_ev r id k v n' e : insert_root r id k v = Ok (Some (n', e)) -> ins_ev e = true.
Proof. intros H. exact (proj1 (insert_root_measure lcount _ _ (fun _ _ _ => eq_refl) lcount_inode _ _ _ _ _ _ H)). Qed.

Lemma n_leaf_insert sz s e k v :
  n_leaf (stats_insert sz s e k v) = n_leaf s - ins_old (fun _ => 0) e + ins_new (fun _ => 0) e + 1.
Proof. destruct e; cbn; lia. Qed.

Lemma n_leaf_remove sz s e k v :
  n_leaf s = n_leaf (stats_remove sz s e k v) - rem_new (fun _ => 0) e + rem_old (fun _ => 0) e + 1.
Proof. destruct e as [| | | |c|c|c|[| | |]|]; cbn; lia. Qed.

Lemma n_i_insert sz c0 s e k v :
  n_i (stats_insert sz s e k v) c0 = n_i s c0 - ins_old (wcount c0) e + ins_new (wcount c0) e + 0.
Proof.
  destruct e as [| | | |c|c|c|c|]; cbn [stats_insert n_i ins_old ins_new]; unfold upd, wcount;
    try destruct c; destruct c0; cbn [cls_eqb smaller]; lia.
Qed.

Lemma n_i_remove sz c0 s e k v :
  n_i s c0 = n_i (stats_remove sz s e k v) c0 - rem_new (wcount c0) e + rem_old (wcount c0) e + 0.
Proof.
  destruct e as [| | | |c|c|c|c|]; try destruct c; cbn [stats_remove n_i rem_old rem_new smaller]; unfold upd, wcount;
    destruct c0; cbn [cls_eqb]; lia.
Qed.

Lemma mem_insert sz s e k v :
  mem (stats_insert sz s e k v) = mem s - ins_old (sz_of sz) e + ins_new (sz_of sz) e + leaf_size sz k v.
Proof. destruct e; cbn [stats_insert mem ins_old ins_new sz_of]; lia. Qed.

Lemma mem_remove sz s e k v :
  mem s = mem (stats_remove sz s e k v) - rem_new (sz_of sz) e + rem_old (sz_of sz) e + leaf_size sz k v.
Proof. destruct e as [| | | |c|c|c|[| | |]|]; cbn [stats_remove mem rem_old rem_new sz_of smaller]; lia. Qed.

Definition SInv (sz : sizes) (d : db) : Prop :=
  n_leaf (st d) = Z.of_nat (length (db_leaves d)) /\
  (forall c, n_i (st d) c = db_count_cls c d) /\
  mem (st d) = db_tree_mem sz d.

Lemma db_lcount d : Z.of_nat (length (db_leaves d)) = rootm lcount (root d).
Proof. unfold db_leaves. now destruct (root d). Qed.

Lemma step_SInv sz d o : SInv sz d -> SInv sz (fst (step sz d o)).
Proof.
  unfold SInv. rewrite !db_lcount. intros (H1 & H2 & H3). split; [|split; [intros c0|]].
  - exact (step_tracks lcount (fun _ => 0) (fun _ _ => 1) (fun _ _ _ => eq_refl) lcount_inode sz n_leaf
             (n_leaf_insert sz) (n_leaf_remove sz) (fun _ => eq_refl) d o H1).
  - exact (step_tracks (count_cls c0) (wcount c0) (fun _ _ => 0) (fun _ _ _ => eq_refl) (count_cls_inode c0) sz
             (fun s => n_i s c0) (n_i_insert sz c0) (n_i_remove sz c0) (fun _ => eq_refl) d o (H2 c0)).
  - exact (step_tracks (tree_mem sz) (sz_of sz) (leaf_size sz) (fun _ _ _ => eq_refl) (tree_mem_inode sz) sz mem
             (mem_insert sz) (mem_remove sz) (fun _ => eq_refl) d o H3).
Qed.

Lemma run_SInv sz ops : forall d, SInv sz d -> SInv sz (run_state sz d ops).
Proof.
  induction ops as [|o ops IH]; intros d H; cbn [run_state]; [exact H|]. apply IH. now apply step_SInv.
Qed.

Theorem stats_are_tree_functions_all : forall sz ops,
  let d := run_state sz db0 ops in
  n_leaf (st d) = Z.of_nat (length (db_leaves d)) /\
  (forall c, n_i (st d) c = db_count_cls c d) /\
  mem (st d) = db_tree_mem sz d.
Proof. intros sz ops. apply run_SInv. unfold SInv. cbn. repeat split. Qed.

Theorem stats_are_tree_functions : forall L sz ops, (1 <= L <= 8)%nat -> Forall (op_ok L) ops ->
  let d := run_state sz db0 ops in
  n_leaf (st d) = Z.of_nat (length (db_leaves d)) /\
  (forall c, n_i (st d) c = db_count_cls c d) /\
  mem (st d) = db_tree_mem sz d.
Proof. intros L sz ops _ _. apply stats_are_tree_functions_all. Qed.

Lemma stats_insert_mono sz s e k v c :
  grow s c <= grow (stats_insert sz s e k v) c /\
  shrink s c <= shrink (stats_insert sz s e k v) c /\
  splits s <= splits (stats_insert sz s e k v).
Proof.
  destruct e as [| | | |c1|c1|c1|c1|]; cbn [stats_insert grow shrink splits]; unfold upd;
    repeat split; try lia; destruct (cls_eqb c _); lia.
Qed.

Lemma stats_remove_mono sz s e k v c :
  grow s c <= grow (stats_remove sz s e k v) c /\
  shrink s c <= shrink (stats_remove sz s e k v) c /\
  splits s <= splits (stats_remove sz s e k v).
Proof.
  destruct e as [| | | |c1|c1|c1|c1|]; try destruct c1; cbn [stats_remove grow shrink splits]; unfold upd;
    repeat split; try lia; destruct (cls_eqb c _); lia.
Qed.

Theorem counters_monotone : forall sz d o c,
  grow (st d) c <= grow (st (fst (step sz d o))) c /\
  shrink (st d) c <= shrink (st (fst (step sz d o))) c /\
  splits (st d) <= splits (st (fst (step sz d o))).
Proof.
  intros sz d o c.
  assert (R : grow (st d) c <= grow (st d) c /\ shrink (st d) c <= shrink (st d) c /\ splits (st d) <= splits (st d)) by lia.
  destruct o as [k|k v|k| |]; try exact R.
  - rewrite step_insert. destruct (insert_root _ _ k v) as [[[n' e]|]|er]; try exact R. apply stats_insert_mono.
  - rewrite step_remove. destruct (remove_root _ k) as [[[[r' e] [lk lv]]|]|er]; try exact R. apply stats_remove_mono.
Qed.

Theorem clear_zero : forall d c,
  n_leaf (st (db_clear d)) = 0 /\ n_i (st (db_clear d)) c = 0 /\ mem (st (db_clear d)) = 0.
Proof. intros d c. cbn. repeat split. Qed.
