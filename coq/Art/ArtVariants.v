(** C16 (Coq part): the conditionally compiled search variants of the inner
    nodes, modelled at mask level, equal the list-level functions used by
    the model; the model's outputs do not depend on its statistics. *)
From Coq Require Import List ZArith Bool Lia.
From Unodb Require Import Base.Lex Art.ArtModel Art.ArtSpec Art.ArtStats.
Import ListNotations.
Local Open Scope Z_scope.

(** SSE compare + movemask: bit i is set iff the predicate holds for lane i
    (masked to the first [n] lanes = the live children) *)
Fixpoint mask_of (p : Z -> bool) (keys : list Z) (n : nat) : list bool :=
  match n, keys with
  | O, _ | _, [] => []
  | S n', k :: keys' => p k :: mask_of p keys' n'
  end.

(** std::countr_zero on the mask: index of the lowest set bit *)
Fixpoint ctz_mask (m : list bool) : option nat :=
  match m with
  | [] => None
  | true :: _ => Some O
  | false :: m' => option_map S (ctz_mask m')
  end.

(** std::popcount *)
Fixpoint popcount_mask (m : list bool) : nat :=
  match m with [] => O | b :: m' => ((if b then 1 else 0) + popcount_mask m')%nat end.

(** find_child of N4 / N16 (x86-64): cmpeq, movemask, mask with (1 << count) - 1, countr_zero *)
Definition find_child_simd (ch : list (Z * node)) (b : Z) : option nat :=
  ctz_mask (mask_of (Z.eqb b) (map fst ch) (length ch)).

Lemma find_child_simd_eq ch b i0 :
  option_map (fun i => (i + i0)%nat) (find_child_simd ch b) = option_map fst (find_child ch b i0).
Proof.
  unfold find_child_simd. revert i0; induction ch as [|[x c] ch IH]; intros i0; cbn [map length mask_of ctz_mask find_child fst]; [reflexivity|].
  rewrite (Z.eqb_sym b x). destruct (x =? b) eqn:E; cbn [option_map fst]; [f_equal; lia|].
  specialize (IH (S i0)). destruct (ctz_mask _) as [j|], (find_child ch b (S i0)) as [[j' c']|]; cbn [option_map fst] in *;
    try discriminate; try reflexivity. injection IH as IH. f_equal. lia.
Qed.

(** N4 insert position: popcount of (key <= insert byte) over the live lanes *)
Definition insert_pos4_simd (ch : list (Z * node)) (b : Z) : nat :=
  popcount_mask (mask_of (fun k => k <=? b) (map fst ch) (length ch)).

Lemma insert_pos4_simd_eq ch b : insert_pos4_simd ch b = insert_pos C4 ch b.
Proof.
  unfold insert_pos4_simd, insert_pos. induction ch as [|[x c] ch IH]; cbn [map length mask_of popcount_mask count_le fst]; [reflexivity|].
  rewrite IH. destruct (x <=? b); reflexivity.
Qed.

(** N16 insert position: first lane with insert byte <= key, else the child count *)
Definition insert_pos16_simd (ch : list (Z * node)) (b : Z) : nat :=
  match ctz_mask (mask_of (fun k => b <=? k) (map fst ch) (length ch)) with
  | Some i => i
  | None => length ch
  end.

Lemma insert_pos16_simd_eq ch b : insert_pos16_simd ch b = insert_pos C16 ch b.
Proof.
  unfold insert_pos16_simd, insert_pos. induction ch as [|[x c] ch IH]; cbn [map length mask_of ctz_mask first_ge fst]; [reflexivity|].
  destruct (b <=? x); [reflexivity|].
  destruct (ctz_mask _) as [i|]; cbn [option_map] in *; lia.
Qed.

(** N48 free-slot search: the pointer array is scanned in groups of [g]
    pointers (2 with SSE, 4 with AVX2, 1 in the scalar loop); within the first
    group containing a null pointer the lowest null lane is taken *)
Fixpoint first_free (slots : list bool (* true = free *)) : option nat :=
  match slots with
  | [] => None
  | true :: _ => Some O
  | false :: s' => option_map S (first_free s')
  end.

Fixpoint first_free_grouped (fuel g : nat) (slots : list bool) (base : nat) : option nat :=
  match fuel with
  | O => None
  | S fuel' =>
      match slots with
      | [] => None
      | _ =>
          match first_free (firstn g slots) with
          | Some i => Some (base + i)%nat
          | None => first_free_grouped fuel' g (skipn g slots) (base + g)%nat
          end
      end
  end.

Lemma first_free_app a b :
  first_free (a ++ b) = match first_free a with Some i => Some i | None => option_map (fun i => (length a + i)%nat) (first_free b) end.
Proof.
  induction a as [|x a IH]; cbn [app first_free length].
  - destruct (first_free b); reflexivity.
  - destruct x; [reflexivity|]. rewrite IH. destruct (first_free a); cbn [option_map]; [reflexivity|].
    destruct (first_free b); reflexivity.
Qed.

Lemma first_free_grouped_eq fuel g slots base :
  (0 < g)%nat -> (length slots <= fuel * g)%nat ->
  first_free_grouped fuel g slots base = option_map (fun i => (base + i)%nat) (first_free slots).
Proof.
  intros Hg. revert slots base; induction fuel as [|fuel IH]; intros slots base Hl.
  - destruct slots; [reflexivity|cbn in Hl; lia].
  - cbn [first_free_grouped]. destruct slots as [|s0 sl] eqn:Es; [reflexivity|]. rewrite <- Es in *. clear Es.
    replace (first_free slots) with (first_free (firstn g slots ++ skipn g slots)) by (now rewrite firstn_skipn).
    rewrite first_free_app.
    destruct (first_free (firstn g slots)) as [i|]; [reflexivity|].
    rewrite IH by (rewrite skipn_length; lia).
    destruct (first_free (skipn g slots)) as [j|] eqn:F; cbn [option_map]; [|reflexivity].
    f_equal. rewrite firstn_length.
    destruct (Nat.le_gt_cases g (length slots)) as [Le|Gt]; [lia|].
    rewrite skipn_all2 in F by lia. discriminate.
Qed.

Theorem free_slot_variants_agree slots :
  (length slots <= 48)%nat ->
  first_free_grouped 24 2 slots 0 = first_free slots /\
  first_free_grouped 12 4 slots 0 = first_free slots /\
  first_free_grouped 48 1 slots 0 = first_free slots.
Proof.
  intros H. repeat split; rewrite first_free_grouped_eq by lia; destruct (first_free slots); reflexivity.
Qed.

(** statistics are observers: the results of every history do not depend on
    the node sizes used for the memory accounting (in particular not on the
    statistics being compiled out) *)
Lemma step_stats_obs sz1 sz2 d1 d2 o :
  root d1 = root d2 -> next_id d1 = next_id d2 ->
  snd (step sz1 d1 o) = snd (step sz2 d2 o) /\
  root (fst (step sz1 d1 o)) = root (fst (step sz2 d2 o)) /\ next_id (fst (step sz1 d1 o)) = next_id (fst (step sz2 d2 o)).
Proof.
  intros R N. destruct o as [k|k v|k| |].
  - cbn [step fst snd]. unfold db_get. now rewrite R.
  - rewrite !step_insert, R, N.
    destruct (insert_root _ _ k v) as [[[n' e]|]|er]; cbn [fst snd root next_id]; repeat split; congruence.
  - rewrite !step_remove, R.
    destruct (remove_root _ k) as [[[[r' e] [lk lv]]|]|er]; cbn [fst snd root next_id]; repeat split; congruence.
  - cbn [step fst snd]. unfold db_empty. now rewrite R.
  - cbn [step fst snd db_clear root next_id]. now repeat split.
Qed.

Theorem run_stats_obs sz1 sz2 ops : run sz1 db0 ops = run sz2 db0 ops.
Proof.
  assert (G : forall d1 d2, root d1 = root d2 -> next_id d1 = next_id d2 -> run sz1 d1 ops = run sz2 d2 ops).
  { induction ops as [|o ops IH]; intros d1 d2 R N; cbn [run]; [reflexivity|].
    destruct (step_stats_obs sz1 sz2 d1 d2 o R N) as (E1 & E2 & E3).
    destruct (step sz1 d1 o) as [d1' r1], (step sz2 d2 o) as [d2' r2]. cbn [fst snd] in *. subst r2. f_equal. now apply IH. }
  now apply G.
Qed.
