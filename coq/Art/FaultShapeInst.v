(** C08b: facts about the generated effect table (Gen/GenFaultShape.v) that need more than one
    computation step. *)
From Coq Require Import List String.
From Unodb Require Import Art.ArtModel Art.ArtFault Art.FaultShape Art.FaultShapeProofs Gen.GenFaultShape.
Import ListNotations.
Local Open Scope string_scope.

Lemma gen_alloc_counts :
  max_allocs (find_op (ft_ops gen_fault_table) "insert_internal") = 2%nat /\
  max_allocs (find_op (ft_ops gen_fault_table) "remove_internal") = 1%nat /\
  (forall e, (ev_allocs e <= max_allocs (find_op (ft_ops gen_fault_table) "insert_internal"))%nat) /\
  (forall c, (ev_allocs (EShrink c) <= max_allocs (find_op (ft_ops gen_fault_table) "remove_internal"))%nat) /\
  ev_allocs ELeafSplit = 2%nat /\ ev_allocs (EShrink C16) = 1%nat /\
  (forall name sh, In (name, sh) (ft_ops gen_fault_table) ->
     forall p, In p (paths sh) -> (count_allocs p <= max_allocs sh)%nat).
Proof.
  assert (Hi : max_allocs (find_op (ft_ops gen_fault_table) "insert_internal") = 2%nat) by (vm_compute; reflexivity).
  assert (Hr : max_allocs (find_op (ft_ops gen_fault_table) "remove_internal") = 1%nat) by (vm_compute; reflexivity).
  split; [exact Hi|]. split; [exact Hr|]. rewrite Hi, Hr.
  split; [exact ev_allocs_bound|].
  split; [intros c; destruct c; cbn; auto|].
  split; [reflexivity|]. split; [reflexivity|].
  intros name sh _ p Hp. exact (count_allocs_le_max sh p Hp).
Qed.
