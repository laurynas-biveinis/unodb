(** C08b: for every effect shape accepted by [fault_safe] (Art/FaultShape.v),
    whichever allocation of whichever path throws, the exception propagates
    (no noexcept frame is met) and after unwinding the abstract state is the
    initial one. *)
From Coq Require Import List ZArith Bool Lia.
From Unodb Require Import Art.FaultShape.
Import ListNotations.
Local Open Scope Z_scope.

Lemma bump_inv i d l : bump i (- d) (bump i d l) = l.
Proof.
  revert i. induction l as [|x l IH]; intros i; [now destruct i|].
  destruct i as [|i]; cbn [bump].
  - f_equal. lia.
  - f_equal. apply IH.
Qed.

Lemma kind_eqb_eq a b : kind_eqb a b = true -> a = b.
Proof. now destruct a, b. Qed.

Lemma kind_eqb_refl a : kind_eqb a a = true.
Proof. now destruct a. Qed.

Definition credit (k : kind) (s : state) : state :=
  match s with
  | mkst p st hp lv => mkst p (bump (stat_ix (SCount k)) 1 st) (bump (kind_ix k) 1 hp) (k :: lv)
  end.

Definition credits (l : list kind) (s : state) : state := fold_right credit s l.

(** Account for the pending block (allocated, not yet owned): its heap count,
    and its statistic when that has been bumped already. *)
Definition pendc (o : option (kind * bool)) (s : state) : state :=
  match o, s with
  | None, _ => s
  | Some (k, false), mkst p st hp lv => mkst p st (bump (kind_ix k) 1 hp) lv
  | Some (k, true), mkst p st hp lv => mkst p (bump (stat_ix (SCount k)) 1 st) (bump (kind_ix k) 1 hp) lv
  end.

(** The state that the checker's summary [c] stands for, starting from [s0]. *)
Definition build (s0 : state) (c : cst) : state := pendc (c_pend c) (credits (c_live c) s0).

(** The run is at the noexcept depth of the summary and, as long as nothing
    irreversible has happened, in the state the summary stands for. *)
Definition rel (c : cst) (s s0 : state) (d : nat) : Prop :=
  d = c_depth c /\ (c_dirty c = false -> s = build s0 c).

Lemma undo_credit k s : undo k (credit k s) = s.
Proof.
  destruct s as [p st hp lv]. cbn [credit undo tl].
  change (-1) with (Z.opp 1). now rewrite !bump_inv.
Qed.

Lemma live_credits l s0 : st_live (credits l s0) = l ++ st_live s0.
Proof.
  induction l as [|k l IH]; [reflexivity|].
  cbn [credits fold_right]. fold (credits l s0).
  destruct (credits l s0) as [p st hp lv] eqn:E. cbn [credit st_live app] in *. now rewrite IH.
Qed.

Lemma unwind_n_credits l s0 : unwind_n l (credits l s0) = s0.
Proof.
  induction l as [|k l IH]; [reflexivity|].
  cbn [credits fold_right unwind_n]. fold (credits l s0). now rewrite undo_credit.
Qed.

Lemma unwind_credits l s0 : st_live s0 = [] -> unwind (credits l s0) = s0.
Proof.
  intros H0. unfold unwind. rewrite live_credits, H0, app_nil_r. apply unwind_n_credits.
Qed.

Lemma alloc_ok_inv c :
  alloc_ok c = true -> c_dirty c = false /\ c_pend c = None /\ c_depth c = O.
Proof.
  unfold alloc_ok. intros H. apply andb_prop in H as [H Hd]. apply andb_prop in H as [Hx Hp].
  repeat split.
  - now destruct (c_dirty c).
  - now destruct (c_pend c).
  - now apply Nat.eqb_eq.
Qed.

Lemma is_stop_inv k : is_stop k = true -> k = Stop.
Proof. now destruct k. Qed.

Lemma rel_dirty c s s0 d : d = c_depth c -> rel (set_dirty c) s s0 d.
Proof. intros ->. split; [reflexivity|]. cbn. discriminate. Qed.

Lemma rel_stat x dz c s s0 d : rel c s s0 d -> rel (on_stat x dz c) (step (TStat x dz) s) s0 d.
Proof.
  intros [Hd Hs]. unfold on_stat.
  destruct x as [k| | |]; try (now apply rel_dirty).
  destruct (c_pend c) as [[k' [|]]|] eqn:P; try (now apply rel_dirty).
  destruct (kind_eqb k k' && Z.eqb dz 1) eqn:E; [|now apply rel_dirty].
  apply andb_prop in E as [E1 E2]. apply kind_eqb_eq in E1 as ->. apply Z.eqb_eq in E2 as ->.
  split; [exact Hd|]. cbn [c_dirty]. intros Hc. rewrite (Hs Hc). unfold build. cbn [c_pend c_live]. rewrite P.
  destruct (credits (c_live c) s0) as [p st hp lv]. reflexivity.
Qed.

Lemma rel_guard k c s s0 d : rel c s s0 d -> rel (on_guard k c) (step (TGuard k) s) s0 d.
Proof.
  intros [Hd Hs]. unfold on_guard.
  destruct (c_pend c) as [[k' [|]]|] eqn:P; try (now apply rel_dirty).
  destruct (kind_eqb k k') eqn:E; [|now apply rel_dirty].
  apply kind_eqb_eq in E as <-.
  split; [exact Hd|]. cbn [c_dirty]. intros Hc. rewrite (Hs Hc). unfold build. cbn [c_pend c_live]. rewrite P.
  cbn [pendc credits fold_right]. fold (credits (c_live c) s0).
  destruct (credits (c_live c) s0) as [p st hp lv]. reflexivity.
Qed.

Lemma rel_alloc k c s s0 d :
  c_pend c = None -> rel c s s0 d -> rel (on_alloc k c) (step (TAlloc k) s) s0 d.
Proof.
  intros P [Hd Hs]. split; [exact Hd|]. cbn [c_dirty on_alloc]. intros Hc. rewrite (Hs Hc).
  unfold build. rewrite P. cbn [c_pend c_live on_alloc pendc].
  destruct (credits (c_live c) s0) as [p st hp lv]. reflexivity.
Qed.

(** The outcome wanted of a run with a failing allocation: never terminate; a
    raised exception, or a completed path that ends in a retry, leaves [s0]. *)
Definition good (s0 : state) (p : list token) (o : outcome) : Prop :=
  match o with
  | Raised s' => s' = s0
  | Terminated => False
  | Completed s' => last p TReturn = TLoop -> s' = s0
  end.

Lemma good_cons s0 (t : token) p o : t <> TLoop -> good s0 p o -> good s0 (t :: p) o.
Proof.
  intros Ht G. destruct o as [s'| |]; cbn [good] in *; try exact G.
  intros HL. apply G. destruct p as [|x p]; [cbn in HL; congruence|exact HL].
Qed.

Definition plain (t : token) : bool :=
  match t with TAlloc _ | TThrow | TLoop | TReturn => false | _ => true end.

Definition cstep (t : token) (c : cst) : cst :=
  match t with
  | TStat x d => on_stat x d c
  | TGuard k => on_guard k c
  | TEnterNoexcept _ => on_depth S c
  | TLeaveNoexcept => on_depth pred c
  | _ => set_dirty c
  end.

Definition dstep (t : token) (d : nat) : nat :=
  match t with TEnterNoexcept _ => S d | TLeaveNoexcept => pred d | _ => d end.

Lemma safe_plain t k c : plain t = true -> safe_from (Tok t k) c = safe_from k (cstep t c).
Proof. destruct t; (discriminate || reflexivity). Qed.

Lemma run_plain t fail d p s :
  plain t = true -> run fail d (t :: p) s = run fail (dstep t d) p (step t s).
Proof. destruct t, s; (discriminate || reflexivity). Qed.

Lemma rel_plain t c s s0 d :
  plain t = true -> rel c s s0 d -> rel (cstep t c) (step t s) s0 (dstep t d).
Proof.
  intros Pl Hrel. pose proof Hrel as [Hd Hs].
  destruct t; try discriminate Pl; cbn [cstep dstep];
    try (now apply rel_dirty); try (now apply rel_stat); try (now apply rel_guard).
  all: destruct s; split; [cbn; now rewrite Hd|exact Hs].
Qed.

Lemma dirty_cstep t c : c_dirty c = true -> c_dirty (cstep t c) = true.
Proof.
  intros Hd. destruct t; try reflexivity; try exact Hd; cbn [cstep].
  - unfold on_stat. destruct s; try reflexivity.
    destruct (c_pend c) as [[k' [|]]|]; try reflexivity.
    destruct (kind_eqb k k' && Z.eqb d 1); [exact Hd|reflexivity].
  - unfold on_guard. destruct (c_pend c) as [[k' [|]]|]; try reflexivity.
    destruct (kind_eqb k k'); [exact Hd|reflexivity].
Qed.

Lemma throw_good s0 c s d p :
  st_live s0 = [] -> alloc_ok c = true -> rel c s s0 d ->
  good s0 p (if Nat.eqb d 0 then Raised (unwind s) else Terminated).
Proof.
  intros H0 Hok [Hd Hs]. apply alloc_ok_inv in Hok as (Hc & Hp & Hz).
  rewrite Hd, Hz. cbn. rewrite (Hs Hc). unfold build. rewrite Hp. now apply unwind_credits.
Qed.

Lemma run_alloc k fail d p s :
  run fail d (TAlloc k :: p) s =
  if Nat.eqb fail 1 then (if Nat.eqb d 0 then Raised (unwind s) else Terminated)
  else run (pred fail) d p (step (TAlloc k) s).
Proof. destruct fail as [|[|f]]; reflexivity. Qed.

Lemma run_safe s0 : st_live s0 = [] ->
  forall sh c s d fail p, safe_from sh c = true -> rel c s s0 d -> In p (paths sh) ->
  good s0 p (run fail d p s).
Proof.
  intros H0. induction sh as [|t k IH|a IHa b IHb]; intros c s d fail p Hsafe Hrel Hin.
  - cbn in Hin. destruct Hin as [<-|[]]. cbn. discriminate.
  - cbn [paths] in Hin. apply in_map_iff in Hin as (p' & <- & Hin).
    destruct (plain t) eqn:Pl.
    { rewrite (safe_plain _ _ _ Pl) in Hsafe. rewrite (run_plain _ _ _ _ _ Pl).
      apply good_cons; [intros ->; discriminate Pl|].
      exact (IH _ _ _ fail p' Hsafe (rel_plain _ _ _ _ _ Pl Hrel) Hin). }
    destruct t; try discriminate Pl; cbn [safe_from] in Hsafe.
    + apply andb_prop in Hsafe as [Hok Hk]. rewrite run_alloc.
      destruct (Nat.eqb fail 1); [now apply (throw_good s0 c)|].
      apply good_cons; [discriminate|]. apply (IH (on_alloc k0 c)); [exact Hk| |exact Hin].
      apply rel_alloc; [apply (alloc_ok_inv _ Hok)|exact Hrel].
    + apply andb_prop in Hsafe as [Hok _]. now apply (throw_good s0 c).
    + (* TLoop: the checker state is clean, so nothing is pending or owned *)
      apply andb_prop in Hsafe as [Hcl _]. unfold clean in Hcl. apply andb_prop in Hcl as [Hok Hlv].
      pose proof (alloc_ok_inv _ Hok) as (Hc & Hp & Hz). destruct Hrel as [Hd Hs].
      cbn [run good]. intros _. rewrite (Hs Hc). unfold build. rewrite Hp.
      destruct (c_live c); [reflexivity|discriminate].
    + apply is_stop_inv in Hsafe as ->. cbn in Hin. destruct Hin as [<-|[]]. cbn. discriminate.
  - cbn [paths] in Hin. cbn [safe_from] in Hsafe. apply andb_prop in Hsafe as [Ha Hb].
    apply in_app_or in Hin as [Hin|Hin]; [now apply (IHa c)|now apply (IHb c)].
Qed.

Lemma rel_init s0 : rel c_init s0 s0 0.
Proof. split; [reflexivity|]. intros _. reflexivity. Qed.

(** Whichever allocation (or length check) of whichever path throws: the exception reaches the caller and
    the state after unwinding is the state before the call; a path that goes round the descent loop
    arrives at the loop head in the state before the call. *)
Theorem fault_safe_strong sh : fault_safe sh = true ->
  forall p, In p (paths sh) -> forall fail s0, st_live s0 = [] ->
    (forall s', run fail 0 p s0 = Raised s' -> s' = s0) /\
    run fail 0 p s0 <> Terminated /\
    (forall s', run fail 0 p s0 = Completed s' -> last p TReturn = TLoop -> s' = s0).
Proof.
  intros Hsafe p Hin fail s0 H0.
  pose proof (run_safe s0 H0 sh c_init s0 0%nat fail p Hsafe (rel_init s0) Hin) as G.
  destruct (run fail 0 p s0) as [s1|s1|]; cbn [good] in G.
  - repeat split; [discriminate|discriminate|]. intros s' E. now injection E as <-.
  - repeat split; [|discriminate|discriminate]. intros s' E. now injection E as <-.
  - contradiction.
Qed.

Lemma safe_tail t k c : safe_from (Tok t k) c = true -> exists c', safe_from k c' = true.
Proof.
  destruct (plain t) eqn:Pl; [rewrite (safe_plain _ _ _ Pl); eauto|].
  destruct t; try discriminate Pl; cbn [safe_from]; intros H.
  - apply andb_prop in H as [_ H]. eauto.
  - apply andb_prop in H as [_ H]. apply is_stop_inv in H as ->. now exists c.
  - apply andb_prop in H as [_ H]. apply is_stop_inv in H as ->. now exists c.
  - apply is_stop_inv in H as ->. now exists c.
Qed.

Lemma safe_dirty t k c : c_dirty c = true -> safe_from (Tok t k) c = true ->
  throwing t = false /\ exists c', c_dirty c' = true /\ safe_from k c' = true.
Proof.
  intros Hd Hsafe.
  assert (Hno : alloc_ok c = false) by (unfold alloc_ok; now rewrite Hd).
  destruct (plain t) eqn:Pl.
  - rewrite (safe_plain _ _ _ Pl) in Hsafe. split; [now destruct t|].
    exists (cstep t c). split; [now apply dirty_cstep|exact Hsafe].
  - destruct t; try discriminate Pl; cbn [safe_from] in Hsafe.
    + rewrite Hno in Hsafe. discriminate Hsafe.
    + rewrite Hno in Hsafe. discriminate Hsafe.
    + unfold clean in Hsafe. rewrite Hno in Hsafe. discriminate Hsafe.
    + apply is_stop_inv in Hsafe as ->. split; [reflexivity|]. now exists c.
Qed.

Lemma dirty_no_throw sh : forall c, c_dirty c = true -> safe_from sh c = true ->
  forall p, In p (paths sh) -> forall t, In t p -> throwing t = false.
Proof.
  induction sh as [|t k IH|a IHa b IHb]; intros c Hd Hsafe p Hin t' Ht'.
  - cbn in Hin. destruct Hin as [<-|[]]. destruct Ht'.
  - cbn [paths] in Hin. apply in_map_iff in Hin as (p' & <- & Hin).
    destruct (safe_dirty _ _ _ Hd Hsafe) as (Hth & c' & Hd' & Hsafe').
    destruct Ht' as [<-|Ht']; [exact Hth|exact (IH c' Hd' Hsafe' p' Hin t' Ht')].
  - cbn [paths] in Hin. cbn [safe_from] in Hsafe. apply andb_prop in Hsafe as [Ha Hb].
    apply in_app_or in Hin as [Hin|Hin]; [eapply IHa|eapply IHb]; eassumption.
Qed.

Lemma no_throw_after_visible_from sh : forall c, safe_from sh c = true ->
  forall p, In p (paths sh) -> forall a t b, p = a ++ t :: b -> visible t = true ->
  forall t', In t' b -> throwing t' = false.
Proof.
  induction sh as [|t0 k IH|x IHx y IHy]; intros c Hsafe p Hin a t b Hp Hv t' Ht'.
  - cbn in Hin. destruct Hin as [<-|[]]. now destruct a.
  - cbn [paths] in Hin. apply in_map_iff in Hin as (p' & <- & Hin).
    destruct a as [|t1 a]; cbn [app] in Hp; injection Hp as -> ->.
    + (* the visible token is the head: the rest runs in a dirty checker state *)
      assert (Pl : plain t = true) by (now destruct t).
      rewrite (safe_plain _ _ _ Pl) in Hsafe.
      apply (dirty_no_throw k (cstep t c)) with (p := b); [now destruct t|assumption..].
    + destruct (safe_tail _ _ _ Hsafe) as [c' Hc'].
      exact (IH c' Hc' _ Hin a t b eq_refl Hv t' Ht').
  - cbn [paths] in Hin. cbn [safe_from] in Hsafe. apply andb_prop in Hsafe as [Hx Hy].
    apply in_app_or in Hin as [Hin|Hin]; [eapply IHx|eapply IHy]; eassumption.
Qed.

(** after the first store into the tree / free / release / adoption of a path, the path contains no
    allocation and no throw *)
Theorem no_throw_after_visible sh : fault_safe sh = true ->
  forall p, In p (paths sh) -> forall a t b, p = a ++ t :: b -> visible t = true ->
  forall t', In t' b -> throwing t' = false.
Proof. intros H. exact (no_throw_after_visible_from sh c_init H). Qed.

Theorem count_allocs_le_max sh : forall p, In p (paths sh) -> (count_allocs p <= max_allocs sh)%nat.
Proof.
  induction sh as [|t k IH|a IHa b IHb]; intros p Hin.
  - cbn in Hin. destruct Hin as [<-|[]]. cbn. lia.
  - cbn [paths] in Hin. apply in_map_iff in Hin as (p' & <- & Hin). specialize (IH p' Hin).
    destruct t; cbn [count_allocs max_allocs]; lia.
  - cbn [paths] in Hin. cbn [max_allocs]. apply in_app_or in Hin as [Hin|Hin];
      [specialize (IHa p Hin)|specialize (IHb p Hin)]; lia.
Qed.

Theorem deleter_is_undo e : deleter_ok e = true ->
  forall p st hp lv, run_tokens (snd e) (mkst p st hp (fst e :: lv)) = undo (fst e) (mkst p st hp (fst e :: lv)).
Proof.
  destruct e as [k ts]. unfold deleter_ok. cbn [fst snd].
  destruct ts as [|t1 ts]; [discriminate|].
  destruct t1 as [?|? ?|?|?|?|?|k1| |?| |?| | ]; try discriminate.
  destruct ts as [|t2 ts]; [discriminate|].
  destruct t2 as [?|x dz|?|?|?|?|?| |?| |?| | ]; try discriminate. destruct x as [k2| | |]; try discriminate.
  destruct ts as [|t3 ts]; [|discriminate].
  intros H. apply andb_prop in H as [H Hd]. apply andb_prop in H as [H1 H2].
  apply kind_eqb_eq in H1 as <-. apply kind_eqb_eq in H2 as <-. apply Z.eqb_eq in Hd as ->.
  intros p st hp lv. cbn [run_tokens fold_left step undo remove_first tl]. now rewrite kind_eqb_refl.
Qed.

Theorem table_safe_ops t : table_safe t = true ->
  forall name sh, In (name, sh) (ft_ops t) -> fault_safe sh = true.
Proof.
  unfold table_safe. intros H name sh Hin. apply andb_prop in H as [_ H].
  rewrite forallb_forall in H. exact (H _ Hin).
Qed.

Theorem table_safe_deleters t : table_safe t = true ->
  forall e, In e (ft_deleters t) -> deleter_ok e = true.
Proof.
  unfold table_safe. intros H e Hin. apply andb_prop in H as [H _]. apply andb_prop in H as [H _].
  rewrite forallb_forall in H. exact (H _ Hin).
Qed.
