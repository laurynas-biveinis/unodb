(** Bit-level facts used by the bridges: bits above the range of a number, a
    single-bit mask (sign bit set / clear / flip), fields that do not overlap. *)
From Coq Require Import ZArith Lia Bool.
Local Open Scope Z_scope.

Lemma testbit_small a k n : 0 <= a < 2 ^ k -> k <= n -> Z.testbit a n = false.
Proof.
  intros Ha Hn. destruct (Z.eq_dec a 0) as [->|Hz]; [apply Z.bits_0|].
  assert (0 <= k) by (destruct (Z.le_gt_cases 0 k); [assumption|rewrite Z.pow_neg_r in Ha; lia]).
  apply Z.bits_above_log2; [lia|]. apply Z.lt_le_trans with k; [|exact Hn].
  apply Z.log2_lt_pow2; lia.
Qed.

Lemma testbit_top x k : 0 <= k -> 2 ^ k <= x < 2 ^ (k + 1) -> Z.testbit x k = true.
Proof.
  intros Hk Hx. rewrite Z.pow_add_r in Hx by lia. change (2 ^ 1) with 2 in Hx.
  apply Z.testbit_true; [exact Hk|].
  rewrite <- (Z.div_unique_pos x (2 ^ k) 1 (x - 2 ^ k)) by lia. reflexivity.
Qed.

Lemma land_pow2_bit a n : 0 <= n -> Z.land a (2 ^ n) = Z.b2z (Z.testbit a n) * 2 ^ n.
Proof.
  intros Hn. apply Z.bits_inj'. intros m Hm.
  rewrite Z.land_spec, Z.pow2_bits_eqb by lia.
  destruct (Z.eqb_spec n m) as [<-|Hne].
  - rewrite andb_true_r. rewrite Z.mul_pow2_bits by lia. rewrite Z.sub_diag. symmetry. apply Z.b2z_bit0.
  - rewrite andb_false_r. symmetry. destruct (Z.ltb_spec m n) as [Lt|Ge].
    + apply Z.mul_pow2_bits_low. lia.
    + rewrite Z.mul_pow2_bits by lia. destruct (Z.testbit a n); cbn [Z.b2z].
      * apply Z.bits_above_log2; [lia|]. cbn. lia.
      * apply Z.bits_0.
Qed.

Lemma lor_add_disjoint a b k : 0 <= k -> 0 <= a < 2 ^ k -> Z.lor a (b * 2 ^ k) = a + b * 2 ^ k.
Proof.
  intros Hk Ha.
  assert (L : Z.land a (b * 2 ^ k) = 0).
  { apply Z.bits_inj'. intros n Hn. rewrite Z.land_spec, Z.bits_0.
    destruct (Z.lt_ge_cases n k) as [Lt|Ge].
    - rewrite Z.mul_pow2_bits_low by lia. apply andb_false_r.
    - rewrite (testbit_small a k n) by lia. reflexivity. }
  rewrite <- Z.lxor_lor by exact L. symmetry. now apply Z.add_nocarry_lxor.
Qed.

Lemma land_pow2_small x k : 0 <= k -> 0 <= x < 2 ^ k -> Z.land x (2 ^ k) = 0.
Proof. intros Hk Hx. now rewrite land_pow2_bit, (testbit_small x k k) by lia. Qed.

Lemma land_pow2_big x k : 0 <= k -> 2 ^ k <= x < 2 ^ (k + 1) -> Z.land x (2 ^ k) = 2 ^ k.
Proof. intros Hk Hx. rewrite land_pow2_bit, testbit_top by assumption. apply Z.mul_1_l. Qed.

Lemma lor_pow2_small x k : 0 <= k -> 0 <= x < 2 ^ k -> Z.lor x (2 ^ k) = x + 2 ^ k.
Proof. intros Hk Hx. rewrite <- (Z.mul_1_l (2 ^ k)). now apply lor_add_disjoint. Qed.

Lemma lxor_pow2_big x k : 0 <= k -> 2 ^ k <= x < 2 ^ (k + 1) -> Z.lxor x (2 ^ k) = x - 2 ^ k.
Proof.
  intros Hk Hx. rewrite Z.pow_add_r in Hx by lia. change (2 ^ 1) with 2 in Hx.
  replace x with (x - 2 ^ k + 2 ^ k) at 1 by ring.
  rewrite Z.add_nocarry_lxor by (apply land_pow2_small; lia).
  now rewrite Z.lxor_assoc, Z.lxor_nilpotent, Z.lxor_0_r.
Qed.

Lemma land_ones_mod a n : 0 <= n -> Z.land a (2 ^ n - 1) = a mod 2 ^ n.
Proof. intros Hn. rewrite <- Z.land_ones by exact Hn. rewrite Z.ones_equiv. reflexivity. Qed.

Lemma lxor_mod_pow2 a b k : 0 <= k -> Z.lxor a b mod 2 ^ k = Z.lxor (a mod 2 ^ k) (b mod 2 ^ k).
Proof.
  intros Hk. rewrite <- !Z.land_ones by exact Hk.
  apply Z.bits_inj'. intros n Hn. rewrite Z.lxor_spec, !Z.land_spec, Z.lxor_spec.
  destruct (Z.testbit (Z.ones k) n); now rewrite ?andb_false_r, ?andb_true_r.
Qed.

Lemma land_2 a : 0 <= a -> Z.land a 2 = 2 * ((a / 2) mod 2).
Proof.
  intros Ha. change 2 with (2 ^ 1) at 1. rewrite land_pow2_bit by lia.
  rewrite Z.testbit_spec' by lia. change (2 ^ 1) with 2. lia.
Qed.

Lemma land_3 a : Z.land a 3 = a mod 4.
Proof. apply (land_ones_mod a 2). lia. Qed.
