(** Big-endian / little-endian byte strings of machine words, byte swap. *)
From Coq Require Import List ZArith Lia.
From Unodb Require Import Base.Lex.
Import ListNotations.
Local Open Scope Z_scope.

Definition is_byte (b : Z) : Prop := 0 <= b < 256.
Definition is_byteb (b : Z) : bool := (0 <=? b) && (b <? 256).
Definition bytes_ok (l : list Z) : Prop := Forall is_byte l.

(** most significant byte first; v is reduced modulo 256^n *)
Fixpoint be_bytes (n : nat) (v : Z) : list Z :=
  match n with
  | O => []
  | S n' => (v / 256 ^ Z.of_nat n') mod 256 :: be_bytes n' v
  end.

(** [le_bytes n v]: what memcpy from a little-endian word reads. *)
Fixpoint le_bytes (n : nat) (v : Z) : list Z :=
  match n with
  | O => []
  | S n' => v mod 256 :: le_bytes n' (v / 256)
  end.

Fixpoint be_value (l : list Z) : Z :=
  match l with
  | [] => 0
  | b :: l' => b * 256 ^ Z.of_nat (length l') + be_value l'
  end.

Fixpoint le_value (l : list Z) : Z :=
  match l with
  | [] => 0
  | b :: l' => b + 256 * le_value l'
  end.

Definition bswap (n : nat) (v : Z) : Z := le_value (be_bytes n v).

Lemma pow256_pos n : 0 < 256 ^ Z.of_nat n.
Proof. apply Z.pow_pos_nonneg; lia. Qed.

Lemma pow256_S n : 256 ^ Z.of_nat (S n) = 256 * 256 ^ Z.of_nat n.
Proof. rewrite Nat2Z.inj_succ, Z.pow_succ_r by lia. reflexivity. Qed.

Lemma mod_mul_div a b v : 0 < a -> 0 < b -> (v mod (a * b)) / a = (v / a) mod b.
Proof.
  intros A B. rewrite Z.rem_mul_r, (Z.mul_comm a), Z.div_add by lia.
  rewrite Z.div_small by (apply Z.mod_pos_bound; lia). reflexivity.
Qed.

Lemma mod_mul_mod a b v : 0 < a -> 0 < b -> (v mod (a * b)) mod a = v mod a.
Proof.
  intros A B. rewrite Z.rem_mul_r, (Z.mul_comm a), Z.mod_add by lia. apply Z.mod_mod; lia.
Qed.

Lemma le_bytes_length n v : length (le_bytes n v) = n.
Proof. revert v; induction n; intros; cbn; auto. Qed.

Lemma le_bytes_ok n v : bytes_ok (le_bytes n v).
Proof.
  revert v; induction n as [|n IH]; intros v; cbn [le_bytes]; constructor.
  - unfold is_byte. apply Z.mod_pos_bound; lia.
  - apply IH.
Qed.

Lemma le_value_bound l : bytes_ok l -> 0 <= le_value l < 256 ^ Z.of_nat (length l).
Proof.
  induction 1 as [|b l Hb Hl IH]; cbn [le_value length]; [cbn; lia|].
  rewrite pow256_S. unfold is_byte in Hb. nia.
Qed.

Lemma le_value_app l1 l2 :
  le_value (l1 ++ l2) = le_value l1 + le_value l2 * 256 ^ Z.of_nat (length l1).
Proof.
  induction l1 as [|x l1 IH]; cbn [app le_value length].
  - cbn [Z.of_nat]. rewrite Z.pow_0_r. lia.
  - rewrite IH, pow256_S. ring.
Qed.

Lemma le_value_le_bytes_mod k w : le_value (le_bytes k w) = w mod 256 ^ Z.of_nat k.
Proof.
  revert w; induction k as [|k IH]; intros w.
  - cbn [le_bytes le_value Z.of_nat]. rewrite Z.pow_0_r, Z.mod_1_r. reflexivity.
  - cbn [le_bytes le_value]. rewrite IH, pow256_S.
    pose proof (pow256_pos k) as P. rewrite Z.rem_mul_r by lia. reflexivity.
Qed.

Lemma le_value_le_bytes n v : 0 <= v < 256 ^ Z.of_nat n -> le_value (le_bytes n v) = v.
Proof. intros Hv. rewrite le_value_le_bytes_mod. now apply Z.mod_small. Qed.

Lemma le_bytes_le_value l : bytes_ok l -> le_bytes (length l) (le_value l) = l.
Proof.
  induction 1 as [|b l Hb Hl IH]; cbn [le_value length le_bytes]; [reflexivity|].
  unfold is_byte in Hb. f_equal.
  - rewrite (Z.mul_comm 256), Z.mod_add by lia. apply Z.mod_small; lia.
  - rewrite (Z.mul_comm 256), Z.div_add by lia. rewrite Z.div_small by lia. exact IH.
Qed.

Lemma be_bytes_snoc n v : be_bytes (S n) v = be_bytes n (v / 256) ++ [v mod 256].
Proof.
  induction n as [|n IH]; [cbn; now rewrite Z.div_1_r|].
  cbn [be_bytes app] in *. rewrite <- IH. f_equal.
  rewrite pow256_S, Z.div_div by (pose proof (pow256_pos n); lia). reflexivity.
Qed.

Lemma be_bytes_rev n v : be_bytes n v = rev (le_bytes n v).
Proof.
  revert v; induction n as [|n IH]; intros v; [reflexivity|].
  rewrite be_bytes_snoc, IH. reflexivity.
Qed.

Lemma be_value_le_value_rev l : be_value l = le_value (rev l).
Proof.
  induction l as [|b l IH]; cbn [be_value rev]; [reflexivity|].
  rewrite le_value_app, rev_length, IH. cbn [le_value]. lia.
Qed.

Lemma be_bytes_length n v : length (be_bytes n v) = n.
Proof. now rewrite be_bytes_rev, rev_length, le_bytes_length. Qed.

Lemma be_bytes_ok n v : bytes_ok (be_bytes n v).
Proof. rewrite be_bytes_rev. apply Forall_rev, le_bytes_ok. Qed.

Lemma be_value_be_bytes n v : 0 <= v < 256 ^ Z.of_nat n -> be_value (be_bytes n v) = v.
Proof. rewrite be_value_le_value_rev, be_bytes_rev, rev_involutive. apply le_value_le_bytes. Qed.

Lemma be_value_bound l : bytes_ok l -> 0 <= be_value l < 256 ^ Z.of_nat (length l).
Proof.
  intros H. rewrite be_value_le_value_rev, <- rev_length. now apply le_value_bound, Forall_rev.
Qed.

Lemma be_bytes_be_value l : bytes_ok l -> be_bytes (length l) (be_value l) = l.
Proof.
  intros H. rewrite be_bytes_rev, be_value_le_value_rev, <- rev_length.
  rewrite le_bytes_le_value by now apply Forall_rev. apply rev_involutive.
Qed.

Lemma be_bytes_inj n a b :
  0 <= a < 256 ^ Z.of_nat n -> 0 <= b < 256 ^ Z.of_nat n ->
  be_bytes n a = be_bytes n b -> a = b.
Proof.
  intros Ha Hb E. rewrite <- (be_value_be_bytes n a Ha), <- (be_value_be_bytes n b Hb).
  now rewrite E.
Qed.

(** the first differing byte outweighs the rest *)
Lemma be_value_compare l1 l2 : bytes_ok l1 -> bytes_ok l2 -> length l1 = length l2 ->
  lex_compare l1 l2 = Z.compare (be_value l1) (be_value l2).
Proof.
  intros B1; revert l2; induction B1 as [|a l1 Ha B1 IH]; intros l2 B2 L;
    destruct B2 as [|b l2 Hb B2]; try discriminate; [reflexivity|].
  injection L as L. cbn [lex_compare be_value]. rewrite <- L, (IH l2 B2 L).
  pose proof (be_value_bound l1 B1) as R1. pose proof (be_value_bound l2 B2) as R2. rewrite <- L in R2.
  set (p := 256 ^ Z.of_nat (length l1)) in *.
  destruct (Z.compare_spec a b) as [->|Lt|Gt]; symmetry.
  - apply Z.add_compare_mono_l.
  - apply Z.compare_lt_iff. nia.
  - apply Z.compare_gt_iff. nia.
Qed.

Lemma be_bytes_compare n a b :
  0 <= a < 256 ^ Z.of_nat n -> 0 <= b < 256 ^ Z.of_nat n ->
  lex_compare (be_bytes n a) (be_bytes n b) = Z.compare a b.
Proof.
  intros Ha Hb. rewrite be_value_compare, !be_value_be_bytes by
    (auto using be_bytes_ok; now rewrite !be_bytes_length).
  reflexivity.
Qed.

Lemma le_bytes_bswap n v : le_bytes n (bswap n v) = be_bytes n v.
Proof.
  unfold bswap. pose proof (le_bytes_le_value (be_bytes n v) (be_bytes_ok n v)) as H.
  now rewrite be_bytes_length in H.
Qed.

Lemma bswap_bound n v : 0 <= bswap n v < 256 ^ Z.of_nat n.
Proof.
  unfold bswap. pose proof (le_value_bound (be_bytes n v) (be_bytes_ok n v)) as H.
  now rewrite be_bytes_length in H.
Qed.

Lemma bswap_le_value l : bytes_ok l -> bswap (length l) (le_value l) = be_value l.
Proof.
  intros H. unfold bswap. rewrite be_bytes_rev, le_bytes_le_value by exact H.
  symmetry. apply be_value_le_value_rev.
Qed.
