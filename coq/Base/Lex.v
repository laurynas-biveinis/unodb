(** Lexicographic (byte-wise) order on lists of integers: the order the index
    uses on binary-comparable keys (art_internal.hpp [compare]: memcmp on the
    shared length, then the shorter key first). *)
From Coq Require Import List ZArith Lia Bool.
Import ListNotations.
Local Open Scope Z_scope.

Fixpoint lex_compare (a b : list Z) : comparison :=
  match a, b with
  | [], [] => Eq
  | [], _ :: _ => Lt
  | _ :: _, [] => Gt
  | x :: a', y :: b' =>
      match Z.compare x y with
      | Eq => lex_compare a' b'
      | c => c
      end
  end.

Definition lex_lt (a b : list Z) : Prop := lex_compare a b = Lt.
Definition lex_ltb (a b : list Z) : bool :=
  match lex_compare a b with Lt => true | _ => false end.
Definition lex_leb (a b : list Z) : bool :=
  match lex_compare a b with Gt => false | _ => true end.
Definition lex_eqb (a b : list Z) : bool :=
  match lex_compare a b with Eq => true | _ => false end.

Fixpoint is_prefix (a b : list Z) : bool :=
  match a, b with
  | [], _ => true
  | _ :: _, [] => false
  | x :: a', y :: b' => Z.eqb x y && is_prefix a' b'
  end.

Lemma lex_compare_refl a : lex_compare a a = Eq.
Proof. induction a as [|x a IH]; cbn; [reflexivity|]. now rewrite Z.compare_refl. Qed.

Lemma lex_compare_eq a b : lex_compare a b = Eq <-> a = b.
Proof.
  revert b; induction a as [|x a IH]; intros [|y b]; cbn; split; intros H;
    try reflexivity; try discriminate.
  - destruct (Z.compare_spec x y) as [E|L|G]; try discriminate.
    subst; f_equal; now apply IH.
  - injection H as -> ->. rewrite Z.compare_refl. now apply IH.
Qed.

Lemma lex_compare_antisym a b : lex_compare b a = CompOpp (lex_compare a b).
Proof.
  revert b; induction a as [|x a IH]; intros [|y b]; cbn; try reflexivity.
  rewrite (Z.compare_antisym x y).
  destruct (Z.compare x y); cbn; auto.
Qed.

Lemma lex_lt_irrefl a : ~ lex_lt a a.
Proof. unfold lex_lt; now rewrite lex_compare_refl. Qed.

Lemma lex_lt_trans a b c : lex_lt a b -> lex_lt b c -> lex_lt a c.
Proof.
  unfold lex_lt. revert b c; induction a as [|x a IH]; intros [|y b] [|z c]; cbn;
    try discriminate; try reflexivity.
  destruct (Z.compare_spec x y) as [E|L|G]; try discriminate.
  - subst y. destruct (Z.compare_spec x z); try discriminate; auto. intros; eapply IH; eauto.
  - intros _. destruct (Z.compare_spec y z) as [E|L'|G']; try discriminate; intros _.
    + subst z. now apply Z.compare_lt_iff in L as ->.
    + assert (x < z) as ->%Z.compare_lt_iff by lia. reflexivity.
Qed.

Lemma lex_lt_gt a b : lex_compare a b = Gt <-> lex_lt b a.
Proof.
  unfold lex_lt. rewrite (lex_compare_antisym a b).
  destruct (lex_compare a b); cbn; split; intro; try discriminate; reflexivity.
Qed.

Lemma lex_trichotomy a b : lex_lt a b \/ a = b \/ lex_lt b a.
Proof.
  destruct (lex_compare a b) eqn:E.
  - right; left; now apply lex_compare_eq.
  - now left.
  - right; right; now apply lex_lt_gt.
Qed.

Lemma lex_eqb_eq a b : lex_eqb a b = true <-> a = b.
Proof.
  unfold lex_eqb. rewrite <- lex_compare_eq.
  destruct (lex_compare a b); split; congruence.
Qed.

Lemma lex_eqb_refl a : lex_eqb a a = true.
Proof. now apply lex_eqb_eq. Qed.

Lemma lex_eqb_neq a b : a <> b -> lex_eqb a b = false.
Proof.
  intros H. destruct (lex_eqb a b) eqn:E; [|reflexivity].
  apply lex_eqb_eq in E. contradiction.
Qed.

Lemma lex_eqb_false a b : lex_eqb a b = false -> a <> b.
Proof. intros E ->. rewrite lex_eqb_refl in E. discriminate. Qed.

Lemma lex_ltb_lt a b : lex_ltb a b = true <-> lex_lt a b.
Proof.
  unfold lex_ltb, lex_lt. destruct (lex_compare a b); split; intros H;
    try reflexivity; discriminate.
Qed.

Lemma lex_ltb_irrefl a : lex_ltb a a = false.
Proof. unfold lex_ltb. now rewrite lex_compare_refl. Qed.

Lemma lex_ltb_not_eqb a b : lex_ltb a b = true -> lex_eqb a b = false.
Proof. unfold lex_ltb, lex_eqb. destruct (lex_compare a b); intros H; try reflexivity; discriminate. Qed.

Lemma lex_ltb_asym a b : lex_ltb a b = true -> lex_ltb b a = false.
Proof.
  unfold lex_ltb. rewrite (lex_compare_antisym a b).
  destruct (lex_compare a b); cbn [CompOpp]; intros H; try reflexivity; discriminate.
Qed.

Lemma lex_ltb_false_trans a b c :
  lex_ltb a b = false -> lex_ltb b c = false -> lex_ltb a c = false.
Proof.
  intros Hab Hbc. destruct (lex_ltb a c) eqn:Hac; [|reflexivity]. exfalso.
  apply lex_ltb_lt in Hac.
  destruct (lex_trichotomy b c) as [Hlt|[Heq|Hgt]].
  - apply lex_ltb_lt in Hlt. congruence.
  - subst c. apply lex_ltb_lt in Hac. congruence.
  - pose proof (lex_lt_trans a c b Hac Hgt) as Hl. apply lex_ltb_lt in Hl. congruence.
Qed.

Lemma lex_compare_single a b : lex_compare [a] [b] = Z.compare a b.
Proof. cbn [lex_compare]. destruct (a ?= b); reflexivity. Qed.

Lemma lex_ltb_single a b : lex_ltb [a] [b] = true <-> a < b.
Proof. rewrite lex_ltb_lt. unfold lex_lt. now rewrite lex_compare_single. Qed.

Lemma lex_leb_single a b : lex_leb [a] [b] = true <-> a <= b.
Proof.
  unfold lex_leb. rewrite lex_compare_single. unfold Z.le.
  destruct (a ?= b); split; intros H; try reflexivity; try discriminate.
  exfalso. now apply H.
Qed.

Lemma is_prefix_spec a b : is_prefix a b = true <-> exists c, b = a ++ c.
Proof.
  revert b; induction a as [|x a IH]; intros b; cbn.
  - split; [intros _; now exists b|reflexivity].
  - destruct b as [|y b]; [split; [discriminate|intros [c H]; discriminate]|].
    rewrite andb_true_iff, Z.eqb_eq, IH. split.
    + intros [-> [c ->]]. now exists c.
    + intros [c H]. injection H as -> ->. split; [reflexivity|now exists c].
Qed.

Lemma is_prefix_refl a : is_prefix a a = true.
Proof. apply is_prefix_spec. exists []. now rewrite app_nil_r. Qed.

Lemma is_prefix_same_length a b : is_prefix a b = true -> length a = length b -> a = b.
Proof.
  intros [c ->]%is_prefix_spec L. rewrite app_length in L.
  destruct c; [now rewrite app_nil_r|cbn in L; lia].
Qed.

Definition pf_pair (x y : list Z) : Prop :=
  (is_prefix x y = true -> x = y) /\ (is_prefix y x = true -> x = y).

Lemma pf_pair_sym x y : pf_pair x y -> pf_pair y x.
Proof. intros [H1 H2]. split; intros H; symmetry; auto. Qed.

Lemma pf_pair_same_length x y : length x = length y -> pf_pair x y.
Proof.
  intros L; split; intros H.
  - now apply is_prefix_same_length.
  - symmetry. apply is_prefix_same_length; auto.
Qed.

Lemma pf_pair_tail a x y : pf_pair (a :: x) (a :: y) -> pf_pair x y.
Proof.
  intros [H1 H2]; split; intros H.
  - assert (E : a :: x = a :: y) by (apply H1; cbn; now rewrite Z.eqb_refl). now injection E.
  - assert (E : a :: x = a :: y) by (apply H2; cbn; now rewrite Z.eqb_refl). now injection E.
Qed.

Lemma lex_compare_app_pf x y x' y' : pf_pair x y ->
  lex_compare (x ++ x') (y ++ y') =
  match lex_compare x y with Eq => lex_compare x' y' | c => c end.
Proof.
  revert y; induction x as [|a x IH]; intros [|b y] PF.
  - reflexivity.
  - destruct PF as [H _]. discriminate H. reflexivity.
  - destruct PF as [_ H]. discriminate H. reflexivity.
  - cbn [app lex_compare]. destruct (Z.compare_spec a b) as [E|L|G]; try reflexivity.
    subst b. apply IH. eapply pf_pair_tail; eauto.
Qed.

Lemma is_prefix_app_pf x y x' y' : pf_pair x y ->
  is_prefix (x ++ x') (y ++ y') = true -> x = y /\ is_prefix x' y' = true.
Proof.
  revert y; induction x as [|a x IH]; intros [|b y] PF H.
  - auto.
  - destruct PF as [P _]. discriminate P. reflexivity.
  - destruct PF as [_ P]. discriminate P. reflexivity.
  - cbn [app is_prefix] in H. apply andb_true_iff in H as [E H]. apply Z.eqb_eq in E. subst b.
    destruct (IH y (pf_pair_tail _ _ _ PF) H) as [-> H']. auto.
Qed.

Lemma app_inj_pf x y x' y' : pf_pair x y -> x ++ x' = y ++ y' -> x = y /\ x' = y'.
Proof.
  intros PF E. destruct (is_prefix_app_pf x y x' y' PF) as [-> _]; [rewrite E; apply is_prefix_refl|].
  split; [reflexivity|]. now apply app_inv_head in E.
Qed.

Lemma pf_pair_app x y x' y' : pf_pair x y -> pf_pair x' y' -> pf_pair (x ++ x') (y ++ y').
Proof.
  intros PF PF'. split; intros H.
  - apply is_prefix_app_pf in H as [-> H]; [|exact PF]. f_equal. now apply (proj1 PF').
  - apply is_prefix_app_pf in H as [-> H]; [|now apply pf_pair_sym]. f_equal. now apply (proj2 PF').
Qed.

Lemma lex_compare_app_same p a b : lex_compare (p ++ a) (p ++ b) = lex_compare a b.
Proof. now rewrite lex_compare_app_pf, lex_compare_refl by now apply pf_pair_same_length. Qed.

Lemma lex_compare_app a a' b b' :
  length a = length b ->
  lex_compare (a ++ a') (b ++ b') =
  match lex_compare a b with Eq => lex_compare a' b' | c => c end.
Proof. intros L. now apply lex_compare_app_pf, pf_pair_same_length. Qed.

Lemma lex_lt_proper_prefix a c : c <> [] -> lex_lt a (a ++ c).
Proof.
  intros Hc. unfold lex_lt. rewrite <- (app_nil_r a) at 1. rewrite lex_compare_app_same.
  destruct c; [contradiction|reflexivity].
Qed.
