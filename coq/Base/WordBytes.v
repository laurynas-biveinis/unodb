(** Little-endian byte strings inside machine words: [countr_zero] (of
    Base.GenPrims) arithmetic; [le_bytes] / [le_value] under shifts, masks and
    sums of disjoint fields (shift = zero bytes in front, disjoint [lor] =
    [++]); the length of the common byte prefix of two words is
    countr_zero (a xor b | sentinel) / 8. *)
From Coq Require Import List ZArith Lia Bool.
From Unodb Require Import Base.Bytes Base.GenPrims Base.BitsAux.
Import ListNotations.
Local Open Scope Z_scope.

Lemma pow256_pow2 n : 256 ^ Z.of_nat n = 2 ^ (8 * Z.of_nat n).
Proof. rewrite Z.pow_mul_r by lia. reflexivity. Qed.

Lemma pow256_pow2_Z n : 0 <= n -> 2 ^ (8 * n) = 256 ^ Z.of_nat (Z.to_nat n).
Proof. intros H. rewrite pow256_pow2, Z2Nat.id by lia. reflexivity. Qed.

Lemma pow256_le a b : (a <= b)%nat -> 256 ^ Z.of_nat a <= 256 ^ Z.of_nat b.
Proof. intros H. apply Z.pow_le_mono_r; lia. Qed.

Lemma countr_zero_odd w x : 0 <= x -> x mod 2 = 1 -> countr_zero w x = 0.
Proof.
  intros Hx Ho. destruct x as [|p|p]; [discriminate Ho| |lia].
  destruct p as [p|p|]; cbn [countr_zero ctz_pos]; try reflexivity.
  exfalso. rewrite Pos2Z.inj_xO, Z.mul_comm, Z.mod_mul in Ho; lia.
Qed.

Lemma countr_zero_double w x : 0 < x -> countr_zero w (2 * x) = 1 + countr_zero w x.
Proof. intros Hx. destruct x as [|p|p]; try lia. reflexivity. Qed.

Lemma countr_zero_nonneg w x : 0 < x -> 0 <= countr_zero w x.
Proof.
  intros Hx. destruct x as [|p|p]; try lia. cbn [countr_zero].
  induction p; cbn [ctz_pos]; lia.
Qed.

Lemma countr_zero_mul_pow2 w x k :
  0 < x -> countr_zero w (2 ^ Z.of_nat k * x) = Z.of_nat k + countr_zero w x.
Proof.
  intros Hx. induction k as [|k IH].
  - cbn [Z.of_nat]. rewrite Z.pow_0_r, Z.mul_1_l. lia.
  - rewrite Nat2Z.inj_succ, Z.pow_succ_r by lia.
    rewrite <- Z.mul_assoc, countr_zero_double, IH; [lia|].
    apply Z.mul_pos_pos; [apply Z.pow_pos_nonneg; lia|exact Hx].
Qed.

Lemma countr_zero_lt w x k :
  0 < x -> x mod 2 ^ Z.of_nat k <> 0 -> countr_zero w x < Z.of_nat k.
Proof.
  intros Hx. destruct x as [|p|p]; try lia. clear Hx. cbn [countr_zero].
  revert k; induction p as [p IH|p IH|]; intros [|k] Hm; cbn [ctz_pos];
    try (change (2 ^ Z.of_nat 0) with 1 in Hm; rewrite Z.mod_1_r in Hm); try lia.
  rewrite Nat2Z.inj_succ, Z.pow_succ_r, Pos2Z.inj_xO, Z.mul_mod_distr_l in Hm by
    (try apply Z.pow_nonzero; lia).
  specialize (IH k ltac:(lia)). lia.
Qed.

Lemma ctz_byte_step w y : 0 < y / 256 ->
  countr_zero w y / 8 = if y mod 256 =? 0 then 1 + countr_zero w (y / 256) / 8 else 0.
Proof.
  intros Hq. assert (Hy : 0 < y) by (Z.div_mod_to_equations; lia).
  destruct (Z.eqb_spec (y mod 256) 0) as [E|E].
  - replace y with (2 ^ Z.of_nat 8 * (y / 256)) at 1
      by (change (2 ^ Z.of_nat 8) with 256; Z.div_mod_to_equations; lia).
    rewrite countr_zero_mul_pow2 by exact Hq. change (Z.of_nat 8) with (1 * 8).
    rewrite Z.add_comm, Z.div_add by lia. apply Z.add_comm.
  - pose proof (countr_zero_lt w y 8 Hy E). pose proof (countr_zero_nonneg w y Hy).
    apply Z.div_small. lia.
Qed.

Lemma le_bytes_mod k m a :
  (k <= m)%nat -> le_bytes k (a mod 256 ^ Z.of_nat m) = le_bytes k a.
Proof.
  revert m a; induction k as [|k IH]; intros m a Hk; [reflexivity|].
  destruct m as [|m]; [lia|]. cbn [le_bytes]. rewrite pow256_S.
  pose proof (pow256_pos m) as P.
  rewrite mod_mul_mod, mod_mul_div by lia. f_equal. apply IH. lia.
Qed.

Lemma le_bytes_add_high k m a b :
  (k <= m)%nat -> le_bytes k (a + b * 256 ^ Z.of_nat m) = le_bytes k a.
Proof.
  intros Hk. rewrite <- (le_bytes_mod k m (a + _)), Z.mod_add, le_bytes_mod by
    (try apply Z.pow_nonzero; lia).
  reflexivity.
Qed.

Lemma firstn_le_bytes k n w : (k <= n)%nat -> firstn k (le_bytes n w) = le_bytes k w.
Proof.
  revert n w; induction k as [|k IH]; intros n w Hk; [reflexivity|].
  destruct n as [|n]; [lia|]. cbn [le_bytes firstn]. f_equal. apply IH. lia.
Qed.

Lemma skipn_le_bytes n k w : skipn n (le_bytes (n + k) w) = le_bytes k (w / 256 ^ Z.of_nat n).
Proof.
  revert w; induction n as [|n IH]; intros w.
  - cbn [skipn plus Z.of_nat]. rewrite Z.pow_0_r, Z.div_1_r. reflexivity.
  - cbn [plus le_bytes skipn]. rewrite IH, pow256_S.
    pose proof (pow256_pos n) as P. rewrite Z.div_div by lia. reflexivity.
Qed.

Lemma le_bytes_nil_length n w : length (le_bytes n w) = n.
Proof. apply le_bytes_length. Qed.

Lemma nth_le_bytes n w i :
  (i < n)%nat -> nth i (le_bytes n w) 0 = (w / 256 ^ Z.of_nat i) mod 256.
Proof.
  revert w i; induction n as [|n IH]; intros w i Hi; [lia|].
  destruct i as [|i]; cbn [le_bytes nth].
  - cbn [Z.of_nat]. rewrite Z.pow_0_r, Z.div_1_r. reflexivity.
  - rewrite IH by lia. rewrite pow256_S. pose proof (pow256_pos i) as P.
    rewrite Z.div_div by lia. reflexivity.
Qed.

Lemma bytes_ok_app l1 l2 : bytes_ok l1 -> bytes_ok l2 -> bytes_ok (l1 ++ l2).
Proof. intros H1 H2. apply Forall_app. split; assumption. Qed.

Lemma bytes_ok_firstn n l : bytes_ok l -> bytes_ok (firstn n l).
Proof.
  unfold bytes_ok. revert n; induction l as [|x l IH]; intros [|n] H; cbn [firstn]; try constructor.
  - now inversion H.
  - apply IH. now inversion H.
Qed.

Lemma bytes_ok_skipn n l : bytes_ok l -> bytes_ok (skipn n l).
Proof.
  unfold bytes_ok. revert n; induction l as [|x l IH]; intros [|n] H; cbn [skipn]; try assumption.
  apply IH. now inversion H.
Qed.

Lemma bytes_ok_tl l : bytes_ok l -> bytes_ok (tl l).
Proof. intros H. destruct H; cbn [tl]; [constructor|assumption]. Qed.

Lemma is_byte_hd l : bytes_ok l -> is_byte (hd 0 l).
Proof. intros H. destruct H; cbn [hd]; [unfold is_byte; lia|assumption]. Qed.

Lemma le_value_repeat0 k : le_value (repeat 0 k) = 0.
Proof. induction k as [|k IH]; cbn [repeat le_value]; lia. Qed.

Lemma bytes_ok_repeat0 k : bytes_ok (repeat 0 k).
Proof. apply Forall_forall. intros x ->%repeat_spec. unfold is_byte. lia. Qed.

Lemma le_value_small l n : bytes_ok l -> (length l <= n)%nat -> 0 <= le_value l < 256 ^ Z.of_nat n.
Proof. intros B L. pose proof (le_value_bound l B). pose proof (pow256_le _ _ L). lia. Qed.

Lemma shiftl_le_value l k : Z.shiftl (le_value l) (8 * Z.of_nat k) = le_value (repeat 0 k ++ l).
Proof.
  rewrite le_value_app, le_value_repeat0, repeat_length, Z.shiftl_mul_pow2, pow256_pow2 by lia. lia.
Qed.

Lemma shiftl_le_value_small l k n : bytes_ok l -> (k + length l <= n)%nat ->
  0 <= Z.shiftl (le_value l) (8 * Z.of_nat k) < 256 ^ Z.of_nat n.
Proof.
  intros B L. rewrite shiftl_le_value. apply le_value_small.
  - apply bytes_ok_app; [apply bytes_ok_repeat0|exact B].
  - now rewrite app_length, repeat_length.
Qed.

Lemma lor_le_value_app l1 l2 : bytes_ok l1 ->
  Z.lor (le_value l1) (Z.shiftl (le_value l2) (8 * Z.of_nat (length l1))) = le_value (l1 ++ l2).
Proof.
  intros B. pose proof (le_value_bound l1 B) as R. rewrite pow256_pow2 in R.
  rewrite Z.shiftl_mul_pow2, lor_add_disjoint, le_value_app, pow256_pow2 by lia. reflexivity.
Qed.

Fixpoint take_pad (m : nat) (l : list Z) : list Z :=
  match m with
  | O => []
  | S m' => hd 0 l :: take_pad m' (tl l)
  end.

Lemma take_pad_length m l : length (take_pad m l) = m.
Proof. revert l; induction m; intros; cbn [take_pad length]; auto. Qed.

Lemma take_pad_ok m l : bytes_ok l -> bytes_ok (take_pad m l).
Proof.
  revert l; induction m as [|m IH]; intros l H; cbn [take_pad]; constructor.
  - now apply is_byte_hd.
  - apply IH. now apply bytes_ok_tl.
Qed.

Lemma firstn_app_repeat m k l :
  (m <= k)%nat -> firstn m (l ++ repeat 0 k) = take_pad m l.
Proof.
  revert k l; induction m as [|m IH]; intros k l Hk; [reflexivity|].
  destruct l as [|x l]; cbn [app take_pad hd tl].
  - destruct k as [|k]; [lia|]. cbn [repeat firstn]. f_equal.
    rewrite <- (IH k []) by lia. reflexivity.
  - cbn [firstn]. f_equal. apply IH. lia.
Qed.

Lemma firstn_take_pad k m l : (k <= m)%nat -> firstn k (take_pad m l) = take_pad k l.
Proof.
  revert m l; induction k as [|k IH]; intros m l Hk; [reflexivity|].
  destruct m as [|m]; [lia|]. cbn [take_pad firstn]. f_equal. apply IH. lia.
Qed.

Lemma take_pad_exact l : take_pad (length l) l = l.
Proof. induction l as [|x l IH]; cbn [length take_pad hd tl]; [reflexivity|now rewrite IH]. Qed.

Lemma le_bytes_le_value_take_pad m l :
  bytes_ok l -> le_bytes m (le_value (take_pad m l)) = take_pad m l.
Proof.
  intros H. pose proof (le_bytes_le_value (take_pad m l) (take_pad_ok m l H)) as E.
  now rewrite take_pad_length in E.
Qed.

Fixpoint common_bytes (n : nat) (a b : Z) : nat :=
  match n with
  | O => O
  | S n' => if a mod 256 =? b mod 256 then S (common_bytes n' (a / 256) (b / 256)) else O
  end.

Theorem ctz_xor_common_bytes w n a b :
  0 <= a -> 0 <= b ->
  countr_zero w (Z.lor (Z.lxor a b) (2 ^ (8 * Z.of_nat n))) / 8 = Z.of_nat (common_bytes n a b).
Proof.
  revert a b; induction n as [|n IH]; intros a b Ha Hb.
  - cbn [Z.of_nat common_bytes]. rewrite Z.mul_0_r, Z.pow_0_r.
    assert (Hx : 0 <= Z.lxor a b) by (apply Z.lxor_nonneg; lia).
    assert (Hl : 0 <= Z.lor (Z.lxor a b) 1) by (apply Z.lor_nonneg; lia).
    assert (Ho : Z.lor (Z.lxor a b) 1 mod 2 = 1).
    { rewrite <- Z.bit0_mod, Z.lor_spec. change (Z.testbit 1 0) with true.
      rewrite orb_true_r. reflexivity. }
    rewrite countr_zero_odd by assumption. reflexivity.
  - cbn [common_bytes]. set (y := Z.lor (Z.lxor a b) (2 ^ (8 * Z.of_nat (S n)))).
    assert (Hs : 2 ^ (8 * Z.of_nat (S n)) = 2 ^ (8 * Z.of_nat n) * 2 ^ 8)
      by (rewrite <- Z.pow_add_r by lia; f_equal; lia).
    assert (Hsp : 0 < 2 ^ (8 * Z.of_nat n)) by (apply Z.pow_pos_nonneg; lia).
    assert (Hyd : y / 256 = Z.lor (Z.lxor (a / 256) (b / 256)) (2 ^ (8 * Z.of_nat n))).
    { unfold y. change 256 with (2 ^ 8).
      rewrite <- !Z.shiftr_div_pow2, Z.shiftr_lor, Z.shiftr_lxor, !Z.shiftr_div_pow2, Hs, Z.div_mul by lia.
      reflexivity. }
    assert (Hym : y mod 256 = Z.lxor (a mod 256) (b mod 256)).
    { unfold y. change 256 with (2 ^ 8).
      rewrite <- Z.land_ones, Z.land_lor_distr_l, !Z.land_ones, lxor_mod_pow2, Hs, Z.mod_mul, Z.lor_0_r by lia.
      reflexivity. }
    assert (Hq : 0 < y / 256).
    { rewrite Hyd. set (u := Z.lxor _ _).
      assert (0 <= u) by (apply Z.lxor_nonneg; split; intros _; apply Z.div_pos; lia).
      pose proof (proj2 (Z.lor_nonneg u (2 ^ (8 * Z.of_nat n))) ltac:(lia)).
      pose proof (Z.lor_eq_0_iff u (2 ^ (8 * Z.of_nat n))). lia. }
    rewrite ctz_byte_step, Hym, Hyd, IH by (try apply Z.div_pos; lia).
    destruct (Z.eqb_spec (a mod 256) (b mod 256)) as [->|E].
    + rewrite Z.lxor_nilpotent. cbn [Z.eqb]. lia.
    + destruct (Z.eqb_spec (Z.lxor (a mod 256) (b mod 256)) 0) as [Z0%Z.lxor_eq|_]; [contradiction|reflexivity].
Qed.

Lemma nth_firstn_lt {A} (l : list A) d n i : (i < n)%nat -> nth i (firstn n l) d = nth i l d.
Proof.
  revert n i; induction l as [|x l IH]; intros [|n] [|i] H; cbn [firstn nth]; try reflexivity; try lia.
  apply IH. lia.
Qed.
