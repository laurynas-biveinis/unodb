(** Link between the bit-pattern float order of the key encoder
    ([ftotal_lt], Encode/EncModel.v) and the IEEE-754 semantics of Flocq
    ([Bcompare], [is_nan], [is_finite], [B2R] on [b32_of_bits] / [b64_of_bits]).
    Section [Gen] is for an arbitrary format with [mw] fraction bits and [ew]
    exponent bits, stated on the computational core
    [FF2SF (binary_float_of_bits_aux mw ew x)] (no dependent validity proof,
    hence closed under the global context), then lifted to
    [binary_float_of_bits]. *)
From Coq Require Import ZArith Bool Lia Reals SpecFloat.
From Flocq Require Import Core.Core IEEE754.BinarySingleNaN IEEE754.Binary IEEE754.Bits.
From Unodb Require Import Base.Lex Base.Bytes Base.FloatBits Encode.EncModel Encode.EncOrder.
Local Open Scope Z_scope.

(** Sign-magnitude comparison, the two zeros being equal: what IEEE comparison
    computes on non-NaN data. *)
Definition cmp_sm (s1 : bool) (a1 : Z) (s2 : bool) (a2 : Z) : comparison :=
  match s1, s2 with
  | false, false => a1 ?= a2
  | true, true => a2 ?= a1
  | true, false => if (a1 =? 0) && (a2 =? 0) then Eq else Lt
  | false, true => if (a1 =? 0) && (a2 =? 0) then Eq else Gt
  end.

Section Gen.

Variables mw ew : Z.
Hypothesis Hmw : 0 < mw.
Hypothesis Hew : 0 < ew.

Local Notation M := (2 ^ mw).
Local Notation E := (2 ^ ew).
Local Notation prec := (mw + 1).
Local Notation emax := (2 ^ (ew - 1)).
Local Notation emn := (SpecFloat.emin prec emax).

Definition gfmt : ffmt := {| fw := mw + ew + 1; fm := mw |}.
Local Notation F := gfmt.

Definition sgn (x : Z) : bool := M * E <=? x.
Definition man (x : Z) : Z := x mod M.
Definition expo (x : Z) : Z := (x / M) mod E.

Lemma M_pos : 0 < M. Proof. apply Z.pow_pos_nonneg; lia. Qed.
Lemma E_ge2 : 2 <= E.
Proof. change 2 with (2 ^ 1) at 1. apply Z.pow_le_mono_r; lia. Qed.

Lemma man_range x : 0 <= man x < M.
Proof. apply Z.mod_pos_bound, M_pos. Qed.
Lemma expo_range x : 0 <= expo x < E.
Proof. apply Z.mod_pos_bound. pose proof E_ge2; lia. Qed.

Lemma split_bits_eq x : split_bits mw ew x = (sgn x, man x, expo x).
Proof. reflexivity. Qed.

Lemma fmsb_F : fmsb F = M * E.
Proof.
  unfold fmsb; cbn [fw gfmt]. replace (mw + ew + 1 - 1) with (mw + ew) by ring.
  apply Z.pow_add_r; lia.
Qed.

Lemma finf_F : finf F = (E - 1) * M.
Proof.
  unfold finf; cbn [fw fm gfmt]. now replace (mw + ew + 1 - 1 - mw) with ew by ring.
Qed.

Lemma fmag_F x : fmag F x = expo x * M + man x.
Proof.
  unfold fmag, expo, man. rewrite fmsb_F.
  pose proof M_pos. pose proof E_ge2.
  rewrite Z.rem_mul_r by lia. ring.
Qed.

Lemma fneg_F x : fneg F x = sgn x.
Proof. unfold fneg. now rewrite fmsb_F. Qed.

Lemma fmag_F_nonneg x : 0 <= fmag F x.
Proof.
  rewrite fmag_F. pose proof (man_range x). pose proof (expo_range x). pose proof M_pos. nia.
Qed.

(** The exponent field is at most [E - 1], so only an all-ones exponent
    reaches [finf]. *)
Lemma fmag_finf x :
  (finf F < fmag F x <-> expo x = E - 1 /\ man x <> 0) /\
  (fmag F x = finf F <-> expo x = E - 1 /\ man x = 0).
Proof.
  rewrite finf_F, fmag_F.
  pose proof (man_range x). pose proof (expo_range x). pose proof M_pos.
  destruct (Z.eq_dec (expo x) (E - 1)) as [->|n]; [lia|].
  assert (expo x * M + M <= (E - 1) * M) by nia. lia.
Qed.

Lemma f_is_nan_F x : f_is_nan F x = (expo x =? E - 1) && negb (man x =? 0).
Proof.
  unfold f_is_nan. apply eq_true_iff_eq.
  rewrite Z.ltb_lt, andb_true_iff, negb_true_iff, Z.eqb_eq, Z.eqb_neq. apply fmag_finf.
Qed.

Lemma f_is_inf_F x : f_is_inf F x = (expo x =? E - 1) && (man x =? 0).
Proof.
  unfold f_is_inf. apply eq_true_iff_eq. rewrite andb_true_iff, !Z.eqb_eq. apply fmag_finf.
Qed.

Definition sf_of (s : bool) (e m : Z) : spec_float :=
  if e =? 0 then
    (if m =? 0 then S754_zero s else S754_finite s (Z.to_pos m) emn)
  else if e =? E - 1 then
    (if m =? 0 then S754_infinity s else S754_nan)
  else S754_finite s (Z.to_pos (m + M)) (e + emn - 1).

Lemma aux_sf x :
  FF2SF (binary_float_of_bits_aux mw ew x) = sf_of (sgn x) (expo x) (man x).
Proof.
  unfold binary_float_of_bits_aux. rewrite split_bits_eq. unfold sf_of.
  pose proof (man_range x) as Hm. pose proof M_pos as HM.
  case Zeq_bool_spec; intros He1.
  - rewrite (proj2 (Z.eqb_eq _ _) He1).
    destruct (man x) as [|p|p]; [reflexivity|reflexivity|lia].
  - rewrite (proj2 (Z.eqb_neq _ _) He1).
    case Zeq_bool_spec; intros He2.
    + rewrite (proj2 (Z.eqb_eq _ _) He2).
      destruct (man x) as [|p|p]; [reflexivity|reflexivity|lia].
    + rewrite (proj2 (Z.eqb_neq _ _) He2).
      destruct (man x + M) as [|p|p] eqn:Q; [lia|reflexivity|lia].
Qed.

Definition nn (e m : Z) : Prop := e <> E - 1 \/ m = 0.

Lemma pcompare_Z p q : Pcompare p q Eq = (Zpos p ?= Zpos q).
Proof. reflexivity. Qed.

Lemma cmp_lex_pos (ea eb : Z) (pa pb : positive) (A B : Z) :
  (ea < eb -> A < B) -> (eb < ea -> B < A) ->
  (ea = eb -> (Zpos pa ?= Zpos pb) = (A ?= B)) ->
  match ea ?= eb with Lt => Lt | Gt => Gt | Eq => Pcompare pa pb Eq end = (A ?= B).
Proof.
  intros H1 H2 H3. rewrite pcompare_Z.
  destruct (Z.compare_spec ea eb) as [e|l|g].
  - now apply H3.
  - symmetry; apply Z.compare_lt_iff; auto.
  - symmetry; apply Z.compare_gt_iff; auto.
Qed.

Lemma cmp_lex_neg (ea eb : Z) (pa pb : positive) (A B : Z) :
  (ea < eb -> A < B) -> (eb < ea -> B < A) ->
  (ea = eb -> (Zpos pa ?= Zpos pb) = (A ?= B)) ->
  match ea ?= eb with Lt => Gt | Gt => Lt | Eq => CompOpp (Pcompare pa pb Eq) end = (B ?= A).
Proof.
  intros H1 H2 H3. rewrite (Z.compare_antisym A B), <- (cmp_lex_pos ea eb pa pb A B H1 H2 H3).
  now destruct (ea ?= eb).
Qed.

Lemma sf_of_cases s e m :
  0 <= m < M -> 0 <= e < E -> nn e m ->
  (e * M + m = 0 /\ sf_of s e m = S754_zero s) \/
  (e * M + m = (E - 1) * M /\ sf_of s e m = S754_infinity s) \/
  (exists p k, sf_of s e m = S754_finite s p (k + emn) /\
     0 < e * M + m < (E - 1) * M /\ e * M + m = k * M + Zpos p /\
     0 <= k /\ 1 <= Zpos p < 2 * M /\ (0 < k -> M <= Zpos p)).
Proof.
  intros Hm He N. pose proof M_pos as HM. pose proof E_ge2 as HE. unfold sf_of, nn in *.
  destruct (Z.eqb_spec e 0) as [E0|E0].
  - subst e. destruct (Z.eqb_spec m 0) as [M0|M0].
    + left. subst m. split; [ring|reflexivity].
    + right; right. exists (Z.to_pos m), 0. rewrite Z2Pos.id by lia.
      split; [reflexivity|]. split; [nia|]. split; [ring|]. lia.
  - destruct (Z.eqb_spec e (E - 1)) as [Em|Em].
    + assert (m = 0) by lia. subst m e. rewrite Z.eqb_refl.
      right; left. split; [ring|reflexivity].
    + right; right. exists (Z.to_pos (m + M)), (e - 1). rewrite Z2Pos.id by lia.
      split; [f_equal; ring|]. split; [nia|]. split; [ring|]. lia.
Qed.

Lemma fin_fin_compare s1 p1 k1 s2 p2 k2 :
  0 <= k1 -> 1 <= Zpos p1 < 2 * M -> (0 < k1 -> M <= Zpos p1) ->
  0 <= k2 -> 1 <= Zpos p2 < 2 * M -> (0 < k2 -> M <= Zpos p2) ->
  SFcompare (S754_finite s1 p1 (k1 + emn)) (S754_finite s2 p2 (k2 + emn))
  = Some (cmp_sm s1 (k1 * M + Zpos p1) s2 (k2 * M + Zpos p2)).
Proof.
  intros K1 P1 Q1 K2 P2 Q2. pose proof M_pos as HM.
  assert (L12 : k1 < k2 -> k1 * M + Zpos p1 < k2 * M + Zpos p2).
  { intros L. assert (M <= Zpos p2) by lia. assert ((k1 + 1) * M <= k2 * M) by nia. lia. }
  assert (L21 : k2 < k1 -> k2 * M + Zpos p2 < k1 * M + Zpos p1).
  { intros L. assert (M <= Zpos p1) by lia. assert ((k2 + 1) * M <= k1 * M) by nia. lia. }
  assert (LE : k1 + emn = k2 + emn -> (Zpos p1 ?= Zpos p2) = (k1 * M + Zpos p1 ?= k2 * M + Zpos p2)).
  { intros L. assert (k1 = k2) by lia. subst k2. symmetry. apply Z.add_compare_mono_l. }
  assert (N1 : 0 < k1 * M + Zpos p1) by nia.
  assert (N2 : 0 < k2 * M + Zpos p2) by nia.
  destruct s1, s2; cbn [SFcompare cmp_sm]; f_equal.
  - apply cmp_lex_neg; [intros; apply L12; lia|intros; apply L21; lia|exact LE].
  - destruct (Z.eqb_spec (k1 * M + Zpos p1) 0); [lia|reflexivity].
  - destruct (Z.eqb_spec (k1 * M + Zpos p1) 0); [lia|reflexivity].
  - apply cmp_lex_pos; [intros; apply L12; lia|intros; apply L21; lia|exact LE].
Qed.

Lemma SFcompare_sf_of s1 e1 m1 s2 e2 m2 :
  0 <= m1 < M -> 0 <= e1 < E -> nn e1 m1 ->
  0 <= m2 < M -> 0 <= e2 < E -> nn e2 m2 ->
  SFcompare (sf_of s1 e1 m1) (sf_of s2 e2 m2)
  = Some (cmp_sm s1 (e1 * M + m1) s2 (e2 * M + m2)).
Proof.
  intros Hm1 He1 N1 Hm2 He2 N2.
  assert (HI : 0 < (E - 1) * M) by (pose proof M_pos; pose proof E_ge2; nia).
  destruct (sf_of_cases s1 e1 m1 Hm1 He1 N1) as [(A1 & ->)|[(A1 & ->)|(p1 & k1 & -> & B1 & A1 & C1)]];
  destruct (sf_of_cases s2 e2 m2 Hm2 He2 N2) as [(A2 & ->)|[(A2 & ->)|(p2 & k2 & -> & B2 & A2 & C2)]].
  9: { rewrite A1, A2. apply fin_fin_compare; tauto. }
  all: revert HI; try revert B1; try revert B2; rewrite ?A1, ?A2;
    generalize ((E - 1) * M); intros I; intros;
    destruct s1, s2; cbn [SFcompare cmp_sm]; f_equal;
    repeat match goal with
    | |- context [ ?a =? ?b ] => destruct (Z.eqb_spec a b)
    end; cbn [andb];
    repeat match goal with
    | |- context [ ?a ?= ?b ] => destruct (Z.compare_spec a b)
    end;
    first [ reflexivity | exfalso; lia ].
Qed.

Lemma nonnan_nn x : f_is_nan F x = false -> nn (expo x) (man x).
Proof.
  rewrite f_is_nan_F. unfold nn.
  destruct (Z.eqb_spec (expo x) (E - 1)); destruct (Z.eqb_spec (man x) 0); cbn; intros; auto; discriminate.
Qed.

(** No hypotheses on the range of the words are needed: all fields are
    extracted with [mod]. *)
Theorem SFcompare_bits x y :
  f_is_nan F x = false -> f_is_nan F y = false ->
  SFcompare (FF2SF (binary_float_of_bits_aux mw ew x)) (FF2SF (binary_float_of_bits_aux mw ew y))
  = Some (cmp_sm (fneg F x) (fmag F x) (fneg F y) (fmag F y)).
Proof.
  intros Nx Ny. rewrite !aux_sf, !fneg_F, !fmag_F.
  apply SFcompare_sf_of; auto using man_range, expo_range, nonnan_nn.
Qed.

(** [ftotal_lt] and [cmp_sm] agree except that the encoder puts -0 strictly before +0. *)
Definition neg_zero (x : Z) : Prop := fneg F x = true /\ fmag F x = 0.
Definition pos_zero (x : Z) : Prop := fneg F x = false /\ fmag F x = 0.

Lemma ftotal_lt_cmp_sm x y :
  f_is_nan F x = false -> f_is_nan F y = false ->
  (ftotal_lt F x y <->
   cmp_sm (fneg F x) (fmag F x) (fneg F y) (fmag F y) = Lt \/ (neg_zero x /\ pos_zero y)).
Proof.
  intros Nx Ny. unfold ftotal_lt, fclass, pair_lt, neg_zero, pos_zero. rewrite Nx, Ny.
  pose proof (fmag_F_nonneg x). pose proof (fmag_F_nonneg y).
  generalize dependent (fmag F x). generalize dependent (fmag F y). intros b Hb a Ha.
  destruct (fneg F x), (fneg F y); cbn [fst snd cmp_sm];
  repeat match goal with
  | |- context [ ?a =? ?b ] => destruct (Z.eqb_spec a b)
  end; cbn [andb];
  rewrite ?Z.compare_lt_iff; intuition (try discriminate; try lia).
Qed.

Lemma sf_of_class s e m :
  is_nan_SF (sf_of s e m) = (e =? E - 1) && negb (m =? 0) /\
  is_finite_SF (sf_of s e m) = negb (e =? E - 1) /\
  ((e =? E - 1) && (m =? 0) = true <-> sf_of s e m = S754_infinity s).
Proof.
  unfold sf_of. pose proof E_ge2. destruct (Z.eqb_spec e 0) as [->|n].
  - destruct (Z.eqb_spec 0 (E - 1)); [lia|]. destruct (m =? 0); repeat split; reflexivity || discriminate.
  - destruct (e =? E - 1), (m =? 0); repeat split; reflexivity || discriminate.
Qed.

Lemma is_nan_aux x : is_nan_FF (binary_float_of_bits_aux mw ew x) = f_is_nan F x.
Proof. rewrite <- is_nan_FF2SF, aux_sf, f_is_nan_F. apply sf_of_class. Qed.

Lemma is_finite_aux x :
  is_finite_FF (binary_float_of_bits_aux mw ew x) = negb (f_is_nan F x) && negb (f_is_inf F x).
Proof.
  assert (Q : forall f, is_finite_FF f = is_finite_SF (FF2SF f)) by (now intros [ | | | ]).
  rewrite Q, aux_sf, f_is_nan_F, f_is_inf_F, (proj1 (proj2 (sf_of_class _ _ _))).
  destruct (expo x =? E - 1), (man x =? 0); reflexivity.
Qed.

Lemma is_inf_aux x :
  f_is_inf F x = true <-> binary_float_of_bits_aux mw ew x = F754_infinity (fneg F x).
Proof.
  assert (Q : forall f b, f = F754_infinity b <-> FF2SF f = S754_infinity b)
    by (intros [ | | | ] b; split; intros H; try discriminate H; now injection H as ->).
  rewrite f_is_inf_F, fneg_F, Q, aux_sf. apply sf_of_class.
Qed.

(** Lifting to [binary_float_of_bits]: the validity proof inside [FF2B] is
    where Flocq's use of the reals enters. *)
Hypothesis Hmax : prec < emax.
Local Notation bof := (binary_float_of_bits mw ew Hmw Hew Hmax).

Lemma Bcompare_bof_SF x y :
  Binary.Bcompare prec emax (bof x) (bof y)
  = SFcompare (FF2SF (binary_float_of_bits_aux mw ew x)) (FF2SF (binary_float_of_bits_aux mw ew y)).
Proof.
  unfold Binary.Bcompare, BinarySingleNaN.Bcompare. rewrite !B2SF_B2BSN.
  unfold binary_float_of_bits. now rewrite !B2SF_FF2B.
Qed.

Theorem Bcompare_bits x y :
  f_is_nan F x = false -> f_is_nan F y = false ->
  Binary.Bcompare prec emax (bof x) (bof y)
  = Some (cmp_sm (fneg F x) (fmag F x) (fneg F y) (fmag F y)).
Proof. intros. rewrite Bcompare_bof_SF. now apply SFcompare_bits. Qed.

Theorem gen_ftotal_lt_Bcompare x y :
  f_is_nan F x = false -> f_is_nan F y = false ->
  Binary.Bcompare prec emax (bof x) (bof y) = Some Lt -> ftotal_lt F x y.
Proof.
  intros Nx Ny H. rewrite Bcompare_bits in H by assumption.
  apply ftotal_lt_cmp_sm; auto. left. congruence.
Qed.

Theorem gen_Bcompare_ftotal_lt x y :
  f_is_nan F x = false -> f_is_nan F y = false ->
  ftotal_lt F x y ->
  Binary.Bcompare prec emax (bof x) (bof y) = Some Lt \/ (neg_zero x /\ pos_zero y).
Proof.
  intros Nx Ny H. rewrite Bcompare_bits by assumption.
  apply ftotal_lt_cmp_sm in H; auto. destruct H as [->|H]; auto.
Qed.

Lemma mag0_nonnan x : fmag F x = 0 -> f_is_nan F x = false.
Proof.
  intros Z0. unfold f_is_nan. rewrite Z0, finf_F. apply Z.ltb_ge. pose proof M_pos; pose proof E_ge2; nia.
Qed.

Theorem gen_Bcompare_zeros x y :
  neg_zero x -> pos_zero y ->
  Binary.Bcompare prec emax (bof x) (bof y) = Some Eq.
Proof.
  intros (Sx & Mx) (Sy & My).
  rewrite Bcompare_bits by now apply mag0_nonnan. now rewrite Sx, Sy, Mx, My.
Qed.

Theorem gen_is_nan x : Binary.is_nan prec emax (bof x) = f_is_nan F x.
Proof. unfold binary_float_of_bits. rewrite is_nan_FF2B. apply is_nan_aux. Qed.

Theorem gen_nan_iff x : f_is_nan F x = true <-> Binary.is_nan prec emax (bof x) = true.
Proof. now rewrite gen_is_nan. Qed.

Theorem gen_is_finite x :
  Binary.is_finite prec emax (bof x) = negb (f_is_nan F x) && negb (f_is_inf F x).
Proof. unfold binary_float_of_bits. rewrite is_finite_FF2B. apply is_finite_aux. Qed.

Theorem gen_is_inf x :
  f_is_inf F x = true <-> bof x = Binary.B754_infinity prec emax (fneg F x).
Proof.
  rewrite is_inf_aux. unfold binary_float_of_bits. split; intros H.
  - apply B2FF_inj. now rewrite B2FF_FF2B.
  - rewrite <- (B2FF_FF2B prec emax _ (binary_float_of_bits_aux_correct mw ew Hmw Hew Hmax x)).
    now rewrite H.
Qed.

Lemma fword_F x : fword F x <-> 0 <= x < 2 * (M * E).
Proof.
  unfold fword; cbn [fw gfmt]. replace (mw + ew + 1) with (Z.succ (mw + ew)) by ring.
  rewrite Z.pow_succ_r, Z.pow_add_r by lia. reflexivity.
Qed.

Lemma neg_zero_word x : fword F x -> (neg_zero x <-> x = fmsb F).
Proof.
  intros Hx. destruct (fword_sm F x ltac:(cbn; lia) Hx) as (B & S). unfold neg_zero. split.
  - intros (N & Z0). rewrite N, Z0 in S. lia.
  - intros E. rewrite E in S at 1. destruct (fneg F x); [split; [reflexivity|]|]; lia.
Qed.

Lemma pos_zero_word x : fword F x -> (pos_zero x <-> x = 0).
Proof.
  intros Hx. destruct (fword_sm F x ltac:(cbn; lia) Hx) as (B & S). unfold pos_zero. split.
  - intros (N & Z0). rewrite N, Z0 in S. exact S.
  - intros E. rewrite E in S at 1. destruct (fneg F x); [|split; [reflexivity|]]; lia.
Qed.

Theorem gen_Bcompare_ftotal_lt_word x y :
  fword F x -> fword F y ->
  f_is_nan F x = false -> f_is_nan F y = false ->
  ftotal_lt F x y ->
  Binary.Bcompare prec emax (bof x) (bof y) = Some Lt \/ (x = fmsb F /\ y = 0).
Proof.
  intros Wx Wy Nx Ny H. destruct (gen_Bcompare_ftotal_lt x y Nx Ny H) as [L|(A & B)]; auto.
  right. split; [now apply neg_zero_word|now apply pos_zero_word].
Qed.

Lemma zero_words_fword : fword F (fmsb F) /\ fword F 0.
Proof. rewrite !fword_F, fmsb_F. pose proof M_pos. pose proof E_ge2. split; nia. Qed.

Theorem gen_Bcompare_zero_words :
  Binary.Bcompare prec emax (bof (fmsb F)) (bof 0) = Some Eq.
Proof.
  destruct zero_words_fword as [W1 W0].
  apply gen_Bcompare_zeros; [now apply neg_zero_word|now apply pos_zero_word].
Qed.

Lemma gen_finite_nonnan x : Binary.is_finite prec emax (bof x) = true -> f_is_nan F x = false.
Proof. rewrite gen_is_finite. destruct (f_is_nan F x); [discriminate|reflexivity]. Qed.

Section WithEnc.
Hypothesis Hok : fmt_ok F.

Theorem gen_enc_lt_iff_Bcompare x y :
  fword F x -> fword F y -> f_is_nan F x = false -> f_is_nan F y = false ->
  (lex_lt (enc_float F x) (enc_float F y) <->
   Binary.Bcompare prec emax (bof x) (bof y) = Some Lt \/ (x = fmsb F /\ y = 0)).
Proof.
  intros Wx Wy Nx Ny. rewrite enc_float_order by auto. split.
  - now apply gen_Bcompare_ftotal_lt_word.
  - intros [H|(-> & ->)]; [now apply gen_ftotal_lt_Bcompare|].
    apply ftotal_lt_cmp_sm; auto. right.
    split; [apply neg_zero_word|apply pos_zero_word]; auto.
Qed.

Theorem gen_enc_lt_of_Bcompare x y :
  fword F x -> fword F y -> f_is_nan F x = false -> f_is_nan F y = false ->
  Binary.Bcompare prec emax (bof x) (bof y) = Some Lt ->
  lex_lt (enc_float F x) (enc_float F y).
Proof. intros Wx Wy Nx Ny H. apply gen_enc_lt_iff_Bcompare; auto. Qed.

(** Link to the reals (uses Flocq's [Bcompare_correct]; finite values only). *)
Theorem gen_enc_lt_iff_Rlt x y :
  fword F x -> fword F y ->
  Binary.is_finite prec emax (bof x) = true -> Binary.is_finite prec emax (bof y) = true ->
  (lex_lt (enc_float F x) (enc_float F y) <->
   (Binary.B2R prec emax (bof x) < Binary.B2R prec emax (bof y))%R \/ (x = fmsb F /\ y = 0)).
Proof.
  intros Wx Wy Fx Fy.
  rewrite gen_enc_lt_iff_Bcompare by auto using gen_finite_nonnan.
  rewrite Binary.Bcompare_correct by assumption. split.
  - intros [H|H]; auto. left. apply Rcompare_Lt_inv. congruence.
  - intros [H|H]; auto. left. f_equal. now apply Rcompare_Lt.
Qed.

Theorem gen_enc_lt_of_Rlt x y :
  fword F x -> fword F y ->
  Binary.is_finite prec emax (bof x) = true -> Binary.is_finite prec emax (bof y) = true ->
  (Binary.B2R prec emax (bof x) < Binary.B2R prec emax (bof y))%R ->
  lex_lt (enc_float F x) (enc_float F y).
Proof. intros Wx Wy Fx Fy H. apply gen_enc_lt_iff_Rlt; auto. Qed.

(** In the exceptional case both values are the real number zero. *)
Theorem gen_zero_words_B2R :
  Binary.B2R prec emax (bof (fmsb F)) = 0%R /\ Binary.B2R prec emax (bof 0) = 0%R.
Proof.
  destruct zero_words_fword as [W1 W0].
  assert (Q : forall x, fmag F x = 0 -> Binary.B2R prec emax (bof x) = 0%R).
  { intros x Hx. unfold binary_float_of_bits. rewrite B2R_FF2B.
    rewrite <- SF2R_FF2SF, aux_sf. rewrite fmag_F in Hx.
    pose proof (man_range x). pose proof (expo_range x). pose proof M_pos.
    assert (expo x = 0 /\ man x = 0) as (-> & ->) by nia. reflexivity. }
  split; apply Q.
  - now apply (proj2 (neg_zero_word _ W1) eq_refl).
  - now apply (proj2 (pos_zero_word _ W0) eq_refl).
Qed.

End WithEnc.

End Gen.

(** [gfmt 23 8] is convertible with [f32] and [gfmt 52 11] with [f64];
    [b32_of_bits] is [binary_float_of_bits 23 8 eq_refl eq_refl eq_refl]. *)

Lemma gfmt32 : gfmt 23 8 = f32. Proof. reflexivity. Qed.
Lemma gfmt64 : gfmt 52 11 = f64. Proof. reflexivity. Qed.

Local Notation Bcompare32 := (Binary.Bcompare 24 128).
Local Notation Bcompare64 := (Binary.Bcompare 53 1024).

(** Concrete words, run through Flocq's decoder and comparison independently
    of the theorems above.
    1.0f = 0x3F800000, 2.0f = 0x40000000, -1.0f = 0xBF800000, +inf = 0x7F800000. *)
Example sanity32 :
  Bcompare32 (b32_of_bits 1065353216) (b32_of_bits 1073741824) = Some Lt /\
  Bcompare32 (b32_of_bits 3212836864) (b32_of_bits 1065353216) = Some Lt /\
  Bcompare32 (b32_of_bits 1073741824) (b32_of_bits 2139095040) = Some Lt /\
  Bcompare32 (b32_of_bits 2139095041) (b32_of_bits 0) = None /\
  f_is_nan f32 2139095041 = true /\ f_is_inf f32 2139095040 = true /\
  ftotal_lt f32 1065353216 1073741824 /\ ftotal_lt f32 3212836864 1065353216.
Proof.
  repeat split; vm_compute; (reflexivity || (left; reflexivity) || (right; split; reflexivity)).
Qed.

(** -0.0 = 0x8000000000000000 < 2.5 = 0x4004000000000000 < +inf = 0x7FF0000000000000;
    -inf = 0xFFF0000000000000 is least. *)
Example sanity64 :
  Bcompare64 (b64_of_bits 9223372036854775808) (b64_of_bits 4612811918334230528) = Some Lt /\
  Bcompare64 (b64_of_bits 4612811918334230528) (b64_of_bits 9218868437227405312) = Some Lt /\
  Bcompare64 (b64_of_bits 18442240474082181120) (b64_of_bits 9223372036854775808) = Some Lt /\
  Bcompare64 (b64_of_bits 9223372036854775808) (b64_of_bits 0) = Some Eq /\
  ftotal_lt f64 9223372036854775808 0 /\
  ftotal_lt f64 18442240474082181120 9223372036854775808 /\
  f_is_inf f64 18442240474082181120 = true /\ f_is_nan f64 18442240474082181121 = true.
Proof.
  repeat split; vm_compute; (reflexivity || (left; reflexivity) || (right; split; reflexivity)).
Qed.
