(** C11: the encoding is order-preserving (integers, floats, text).  The float
    round trip of C12 ([dec_enc_float_word], [enc_float_eq_iff]) is here too:
    it is read off the same sign-magnitude view [fword_sm]. *)
From Coq Require Import List ZArith Lia.
From Unodb Require Import Base.Lex Base.Bytes Encode.EncModel.
Import ListNotations.
Local Open Scope Z_scope.

Lemma half_double n : (1 <= n)%nat -> 2 * half n = 256 ^ Z.of_nat n.
Proof.
  intros Hn. unfold half. destruct n as [|n]; [lia|]. rewrite pow256_S.
  pose proof (pow256_pos n). remember (256 ^ Z.of_nat n) as p.
  replace (256 * p) with (128 * p * 2) by lia. rewrite Z.div_mul by lia. lia.
Qed.

Lemma in_i_shift n v : (1 <= n)%nat -> in_i n v -> in_u n (v + half n).
Proof. unfold in_i, in_u. intros Hn Hv. pose proof (half_double n Hn). lia. Qed.

Theorem enc_uint_order n a b : in_u n a -> in_u n b ->
  lex_compare (enc_uint n a) (enc_uint n b) = Z.compare a b.
Proof. intros; now apply be_bytes_compare. Qed.

Theorem enc_int_order n a b : (1 <= n)%nat -> in_i n a -> in_i n b ->
  lex_compare (enc_int n a) (enc_int n b) = Z.compare a b.
Proof.
  intros Hn Ha Hb. unfold enc_int. rewrite be_bytes_compare by now apply in_i_shift.
  rewrite !(Z.add_comm _ (half n)). apply Z.add_compare_mono_l.
Qed.

Definition fmt_ok (f : ffmt) : Prop := 1 <= fm f /\ fm f + 2 <= fw f /\ fw f = 8 * Z.of_nat (fbytes f).

Lemma f32_ok : fmt_ok f32. Proof. unfold fmt_ok; repeat split; vm_compute; congruence. Qed.
Lemma f64_ok : fmt_ok f64. Proof. unfold fmt_ok; repeat split; vm_compute; congruence. Qed.

Lemma fmt_facts f : fmt_ok f ->
  0 < finf f /\ finf f + 2 ^ (fm f - 1) < fmsb f /\ fmax f = 2 * fmsb f - 1 /\ 1 <= 2 ^ (fm f - 1)
  /\ 2 ^ fw f = 256 ^ Z.of_nat (fbytes f).
Proof.
  intros (H1 & H2 & H3). unfold finf, fmsb, fmax.
  assert (E1 : 2 ^ (fw f - 1) = 2 ^ (fw f - 1 - fm f) * 2 ^ fm f).
  { rewrite <- Z.pow_add_r by lia. f_equal; lia. }
  assert (E2 : 2 ^ fw f = 2 * 2 ^ (fw f - 1)).
  { rewrite <- Z.pow_succ_r by lia. f_equal; lia. }
  assert (E3 : 2 ^ fm f = 2 * 2 ^ (fm f - 1)).
  { rewrite <- Z.pow_succ_r by lia. f_equal; lia. }
  assert (P1 : 2 <= 2 ^ (fw f - 1 - fm f)).
  { change 2 with (2 ^ 1) at 1. apply Z.pow_le_mono_r; lia. }
  assert (P2 : 0 < 2 ^ (fm f - 1)) by (apply Z.pow_pos_nonneg; lia).
  assert (E4 : 2 ^ fw f = 256 ^ Z.of_nat (fbytes f)).
  { rewrite H3. change 256 with (2 ^ 8). rewrite <- Z.pow_mul_r by lia. reflexivity. }
  repeat split; try lia; nia.
Qed.

Definition fword (f : ffmt) (x : Z) : Prop := 0 <= x < 2 ^ fw f.

(** Sign-magnitude view of a word: the one place where div/mod is reasoned about. *)
Lemma fword_sm f x : 0 < fw f -> fword f x ->
  0 <= fmag f x < fmsb f /\ x = if fneg f x then fmsb f + fmag f x else fmag f x.
Proof.
  intros Hw Hx. unfold fword, fmag, fneg, fmsb in *.
  assert (P : 0 < 2 ^ (fw f - 1)) by (apply Z.pow_pos_nonneg; lia).
  assert (E : 2 ^ fw f = 2 * 2 ^ (fw f - 1)) by (rewrite <- Z.pow_succ_r by lia; f_equal; lia).
  split; [apply Z.mod_pos_bound; lia|].
  destruct (Z.leb_spec (2 ^ (fw f - 1)) x).
  - rewrite <- (Z.mod_unique x (2 ^ (fw f - 1)) 1 (x - 2 ^ (fw f - 1))); lia.
  - symmetry. apply Z.mod_small. lia.
Qed.

Lemma fmt_ok_fw f : fmt_ok f -> 0 < fw f.
Proof. unfold fmt_ok. lia. Qed.

Definition enc_sm f (s : bool) (m : Z) : Z :=
  if finf f <? m then fmax f
  else if m =? finf f then (if s then 0 else fmax f - 1)
  else if s then fmsb f - 1 - m else fmsb f + m.

Lemma enc_float_word_sm f x : fmt_ok f -> fword f x ->
  enc_float_word f x = enc_sm f (fneg f x) (fmag f x).
Proof.
  intros Hf Hx. destruct (fword_sm f x (fmt_ok_fw f Hf) Hx) as (_ & S).
  destruct (fmt_facts f Hf) as (_ & _ & M & _ & _).
  unfold enc_float_word, enc_sm, f_is_nan, f_is_inf.
  destruct (fneg f x), (finf f <? fmag f x), (fmag f x =? finf f); lia.
Qed.

Lemma enc_float_word_range f x : fmt_ok f -> fword f x -> fword f (enc_float_word f x).
Proof.
  intros Hf Hx. rewrite enc_float_word_sm by assumption.
  destruct (fword_sm f x (fmt_ok_fw f Hf) Hx) as (B & _).
  destruct (fmt_facts f Hf) as (I0 & I1 & M & _ & _).
  unfold fword, enc_sm, fmax in *.
  destruct (fneg f x), (finf f <? fmag f x), (fmag f x =? finf f); lia.
Qed.

(** The encoding is strictly monotone from the sign-magnitude total order to
    the unsigned order of the code words, and NaNs collapse. *)
Theorem enc_float_word_order f x y : fmt_ok f -> fword f x -> fword f y ->
  (ftotal_lt f x y <-> enc_float_word f x < enc_float_word f y).
Proof.
  intros Hf Hx Hy. rewrite !enc_float_word_sm by assumption.
  destruct (fword_sm f x (fmt_ok_fw f Hf) Hx) as (Bx & _).
  destruct (fword_sm f y (fmt_ok_fw f Hf) Hy) as (By & _).
  destruct (fmt_facts f Hf) as (I0 & I1 & M & Q & _).
  unfold ftotal_lt, pair_lt, fclass, f_is_nan, enc_sm.
  generalize dependent (fmag f x). generalize dependent (fmag f y). intros my By mx Bx.
  destruct (fneg f x), (fneg f y), (Z.ltb_spec (finf f) mx), (Z.ltb_spec (finf f) my),
    (Z.eqb_spec mx (finf f)), (Z.eqb_spec my (finf f)); cbn [fst snd]; lia.
Qed.

Theorem enc_float_order f x y : fmt_ok f -> fword f x -> fword f y ->
  (lex_lt (enc_float f x) (enc_float f y) <-> ftotal_lt f x y).
Proof.
  intros Hf Hx Hy. unfold lex_lt, enc_float.
  destruct (fmt_facts f Hf) as (_ & _ & _ & _ & W).
  pose proof (enc_float_word_range f x Hf Hx) as Rx.
  pose proof (enc_float_word_range f y Hf Hy) as Ry.
  unfold fword in Rx, Ry. rewrite W in Rx, Ry.
  rewrite be_bytes_compare by assumption.
  rewrite enc_float_word_order by assumption. apply Z.compare_lt_iff.
Qed.

Lemma dec_enc_sm f s m : fmt_ok f -> 0 <= m < fmsb f ->
  dec_float_word f (enc_sm f s m) = if finf f <? m then fqnan f else if s then fmsb f + m else m.
Proof.
  intros Hf Hm. destruct (fmt_facts f Hf) as (I0 & I1 & M & Q & _).
  unfold dec_float_word, fqnan. remember (enc_sm f s m) as u eqn:U. unfold enc_sm in U.
  destruct s, (Z.ltb_spec (finf f) m), (Z.eqb_spec m (finf f));
    (destruct (Z.eqb_spec u (fmax f)); [lia|]);
    (destruct (Z.eqb_spec u (fmax f - 1)); [lia|]);
    (destruct (Z.eqb_spec u 0); [lia|]);
    destruct (Z.leb_spec (fmsb f) u); lia.
Qed.

Theorem dec_enc_float_word f x : fmt_ok f -> fword f x ->
  dec_float_word f (enc_float_word f x) = fcanon f x.
Proof.
  intros Hf Hx. destruct (fword_sm f x (fmt_ok_fw f Hf) Hx) as (B & S).
  rewrite enc_float_word_sm, dec_enc_sm by assumption.
  unfold fcanon, f_is_nan. destruct (finf f <? fmag f x); [reflexivity|]. symmetry. exact S.
Qed.

Lemma f_is_nan_qnan f : fmt_ok f -> f_is_nan f (fqnan f) = true.
Proof.
  intros Hf. destruct (fmt_facts f Hf) as (I0 & I1 & _ & Q & _).
  unfold f_is_nan, fmag, fqnan in *. rewrite Z.mod_small by lia. apply Z.ltb_lt. lia.
Qed.

Lemma enc_float_word_canon f x : fmt_ok f -> enc_float_word f (fcanon f x) = enc_float_word f x.
Proof.
  intros Hf. unfold fcanon. destruct (f_is_nan f x) eqn:N; [|reflexivity].
  unfold enc_float_word. now rewrite N, f_is_nan_qnan.
Qed.

(** All NaNs encode equal; distinct classes encode distinct: decoding recovers [fcanon]. *)
Theorem enc_float_eq_iff f x y : fmt_ok f -> fword f x -> fword f y ->
  (enc_float f x = enc_float f y <-> fcanon f x = fcanon f y).
Proof.
  intros Hf Hx Hy. unfold enc_float.
  destruct (fmt_facts f Hf) as (_ & _ & _ & _ & W).
  pose proof (enc_float_word_range f x Hf Hx) as Rx.
  pose proof (enc_float_word_range f y Hf Hy) as Ry.
  unfold fword in Rx, Ry. rewrite W in Rx, Ry.
  split; intros E.
  - apply be_bytes_inj in E; try assumption.
    rewrite <- !dec_enc_float_word by assumption. now rewrite E.
  - rewrite <- (enc_float_word_canon f x), <- (enc_float_word_canon f y), E by assumption. reflexivity.
Qed.

Lemma strip_suffix t : exists z, t = strip_trailing_zeros t ++ z /\ Forall (fun b => b = 0) z.
Proof.
  induction t as [|x t (z & E & Hz)]; cbn [strip_trailing_zeros].
  - exists []. split; [reflexivity|constructor].
  - destruct (strip_trailing_zeros t) as [|y r] eqn:S.
    + destruct (Z.eqb_spec x 0) as [->|Hx].
      * exists (0 :: z). cbn in *. split; [now f_equal|now constructor].
      * exists z. cbn in *. split; [now f_equal|exact Hz].
    + exists z. split; [cbn; now f_equal|exact Hz].
Qed.

Lemma text_norm_prefix t : exists z, firstn (Z.to_nat maxlen) t = text_norm t ++ z.
Proof. destruct (strip_suffix (firstn (Z.to_nat maxlen) t)) as (z & E & _). now exists z. Qed.

Lemma text_norm_length t : Z.of_nat (length (text_norm t)) <= maxlen.
Proof.
  destruct (text_norm_prefix t) as (z & E).
  apply (f_equal (@length Z)) in E. rewrite app_length in E.
  pose proof (firstn_le_length (Z.to_nat maxlen) t).
  unfold maxlen in *. lia.
Qed.

Lemma lex_compare_zero_terminated s s' x y :
  no_zero s -> no_zero s' -> Forall (fun b => 0 <= b) s -> Forall (fun b => 0 <= b) s' ->
  lex_compare (s ++ 0 :: x) (s' ++ 0 :: y) =
  match lex_compare s s' with Eq => lex_compare x y | c => c end.
Proof.
  unfold no_zero. revert s'; induction s as [|a s IH]; intros [|b s'] Z1 Z2 P1 P2; cbn [app lex_compare].
  - rewrite Z.compare_refl. reflexivity.
  - assert (b <> 0) by (intros ->; apply Z2; now left).
    inversion P2; subst. assert (0 < b) as ->%Z.compare_lt_iff by lia. reflexivity.
  - assert (a <> 0) by (intros ->; apply Z1; now left).
    inversion P1; subst. assert (0 < a) as ->%Z.compare_gt_iff by lia. reflexivity.
  - inversion P1; inversion P2; subst.
    destruct (Z.compare a b); auto.
    apply IH; auto; intros Hin; [apply Z1|apply Z2]; now right.
Qed.

Lemma text_norm_nonneg t : Forall (fun b => 0 <= b) t -> Forall (fun b => 0 <= b) (text_norm t).
Proof.
  intros H. destruct (text_norm_prefix t) as (z & E).
  rewrite <- (firstn_skipn (Z.to_nat maxlen) t), E, !Forall_app in H. tauto.
Qed.

Theorem enc_text_order a b :
  bytes_ok a -> bytes_ok b -> NoInteriorZero a -> NoInteriorZero b ->
  lex_compare (enc_text a) (enc_text b) = lex_compare (text_norm a) (text_norm b).
Proof.
  intros Ba Bb Za Zb. unfold enc_text. cbn [app].
  assert (Pa : Forall (fun b => 0 <= b) a) by (eapply Forall_impl; [|exact Ba]; unfold is_byte; intros; lia).
  assert (Pb : Forall (fun b => 0 <= b) b) by (eapply Forall_impl; [|exact Bb]; unfold is_byte; intros; lia).
  rewrite lex_compare_zero_terminated; auto using text_norm_nonneg.
  destruct (lex_compare (text_norm a) (text_norm b)) eqn:E; auto.
  apply lex_compare_eq in E. rewrite E. apply lex_compare_refl.
Qed.

(** Without [NoInteriorZero] order (and prefix freedom) fail:
    [enc_text_interior_zero_refuted] in EncTuple.v. *)
