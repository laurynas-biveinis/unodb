(** C11 (tuples), C12 (round trips, widths, buffer), C15 (prefix freedom). *)
From Coq Require Import List ZArith Lia Bool.
From Unodb Require Import Base.Lex Base.Bytes Encode.EncModel Encode.EncOrder.
Import ListNotations.
Local Open Scope Z_scope.

Lemma is_prefix_zero_terminated s s' x y : no_zero s -> no_zero s' ->
  is_prefix (s ++ 0 :: x) (s' ++ 0 :: y) = true -> s = s' /\ is_prefix x y = true.
Proof.
  unfold no_zero. revert s'; induction s as [|a s IH]; intros [|b s'] Z1 Z2 H; cbn [app is_prefix] in H.
  - apply andb_true_iff in H as [_ H]. auto.
  - apply andb_true_iff in H as [E _]. apply Z.eqb_eq in E. subst b. exfalso; apply Z2; now left.
  - apply andb_true_iff in H as [E _]. apply Z.eqb_eq in E. subst a. exfalso; apply Z1; now left.
  - apply andb_true_iff in H as [E H]. apply Z.eqb_eq in E. subst b.
    destruct (IH s') as [-> H']; auto; intros Hin; [apply Z1|apply Z2]; now right.
Qed.

Theorem enc_text_prefix_free a b : NoInteriorZero a -> NoInteriorZero b -> pf_pair (enc_text a) (enc_text b).
Proof.
  intros Za Zb. unfold enc_text. cbn [app].
  split; intros H; apply is_prefix_zero_terminated in H; auto; destruct H as [E H].
  - now rewrite E.
  - now rewrite E.
Qed.

Theorem enc_text_eq_iff a b : NoInteriorZero a -> NoInteriorZero b ->
  (enc_text a = enc_text b <-> text_norm a = text_norm b).
Proof.
  intros Za Zb. split.
  - intros E. unfold enc_text in E. cbn [app] in E.
    assert (H : is_prefix (text_norm a ++ 0 :: be_bytes 2 (maxlen - Z.of_nat (length (text_norm a))))
                          (text_norm b ++ 0 :: be_bytes 2 (maxlen - Z.of_nat (length (text_norm b)))) = true).
    { rewrite E. apply is_prefix_refl. }
    apply is_prefix_zero_terminated in H; tauto.
  - intros E. unfold enc_text. now rewrite E.
Qed.

Lemma text_norm_firstn t : text_norm (firstn (Z.to_nat maxlen) t) = text_norm t.
Proof. unfold text_norm. rewrite firstn_firstn, Nat.min_id. reflexivity. Qed.

Theorem enc_text_io t :
  enc_text t = enc_text (firstn (Z.to_nat maxlen) t) /\ Z.of_nat (length (enc_text t)) <= maxlen + 3.
Proof.
  split.
  - unfold enc_text. now rewrite text_norm_firstn.
  - unfold enc_text. rewrite !app_length, be_bytes_length. cbn [length].
    pose proof (text_norm_length t). lia.
Qed.

(** The no-interior-zero hypothesis is necessary: "x" and "x\0\xFF\xFB". *)
Theorem enc_text_interior_zero_refuted :
  exists a b, a <> b /\ bytes_ok a /\ bytes_ok b /\ is_prefix (enc_text a) (enc_text b) = true
              /\ enc_text a <> enc_text b.
Proof.
  exists [120], [120; 0; 255; 251]. repeat split.
  - discriminate.
  - repeat constructor; unfold is_byte; lia.
  - repeat constructor; unfold is_byte; lia.
  - vm_compute. discriminate.
Qed.

Definition comp_ok (c : comp) : Prop :=
  match c with
  | CU n v => in_u n v
  | CI n v => (1 <= n)%nat /\ in_i n v
  | CF f x => fmt_ok f /\ fword f x
  | CText t => bytes_ok t /\ NoInteriorZero t
  end.

Definition comp_lt (c d : comp) : Prop :=
  match c, d with
  | CU _ a, CU _ b => a < b
  | CI _ a, CI _ b => a < b
  | CF f x, CF _ y => ftotal_lt f x y
  | CText a, CText b => lex_lt (text_norm a) (text_norm b)
  | _, _ => False
  end.

Lemma compare_lt_iff_eq (c : comparison) a b : c = Z.compare a b -> (c = Lt <-> a < b).
Proof. intros ->. apply Z.compare_lt_iff. Qed.

Lemma comp_order c d : ty_of c = ty_of d -> comp_ok c -> comp_ok d ->
  (lex_lt (enc_comp c) (enc_comp d) <-> comp_lt c d).
Proof.
  destruct c as [n a|n a|f x|a], d as [m b|m b|g y|b]; cbn [ty_of]; intros T; try discriminate;
    cbn [comp_ok enc_comp comp_lt]; unfold lex_lt.
  - injection T as <-. intros Ha Hb. rewrite enc_uint_order by assumption. apply Z.compare_lt_iff.
  - injection T as <-. intros [Hn Ha] [_ Hb]. rewrite enc_int_order by assumption. apply Z.compare_lt_iff.
  - injection T as <-. intros [Hf Hx] [_ Hy]. now apply enc_float_order.
  - intros [Ba Za] [Bb Zb]. rewrite enc_text_order by assumption. reflexivity.
Qed.

Lemma comp_eq_iff c d : ty_of c = ty_of d -> comp_ok c -> comp_ok d ->
  (enc_comp c = enc_comp d <-> comp_canon c = comp_canon d).
Proof.
  destruct c as [n a|n a|f x|a], d as [m b|m b|g y|b]; cbn [ty_of]; intros T; try discriminate;
    cbn [comp_ok enc_comp comp_canon].
  - injection T as <-. intros Ha Hb. unfold enc_uint. split.
    + intros E. f_equal. eapply be_bytes_inj; eauto.
    + intros E. injection E as ->. reflexivity.
  - injection T as <-. intros [Hn Ha] [_ Hb]. unfold enc_int. split.
    + intros E. f_equal. apply be_bytes_inj in E; try now apply in_i_shift. lia.
    + intros E. injection E as ->. reflexivity.
  - injection T as <-. intros [Hf Hx] [_ Hy]. rewrite enc_float_eq_iff by assumption. split.
    + intros ->. reflexivity.
    + intros E. now injection E.
  - intros [Ba Za] [Bb Zb]. rewrite enc_text_eq_iff by assumption. split.
    + intros ->. reflexivity.
    + intros E. now injection E.
Qed.

Lemma enc_comp_length c : forall n, ty_width (ty_of c) = Some n -> length (enc_comp c) = n.
Proof.
  destruct c; cbn [ty_of ty_width enc_comp]; intros m E; try discriminate; injection E as <-; unfold enc_uint, enc_int, enc_float; apply be_bytes_length.
Qed.

Lemma comp_pf c d : ty_of c = ty_of d -> comp_ok c -> comp_ok d -> pf_pair (enc_comp c) (enc_comp d).
Proof.
  intros T Hc Hd. destruct (ty_width (ty_of c)) as [n|] eqn:W.
  - apply pf_pair_same_length. rewrite (enc_comp_length c n W). rewrite T in W.
    now rewrite (enc_comp_length d n W).
  - destruct c as [| | |a]; try discriminate. destruct d as [| | |b]; try discriminate.
    cbn [comp_ok enc_comp] in *. apply enc_text_prefix_free; tauto.
Qed.

Fixpoint tuple_lt (cs ds : list comp) : Prop :=
  match cs, ds with
  | c :: cs', d :: ds' => comp_lt c d \/ (comp_canon c = comp_canon d /\ tuple_lt cs' ds')
  | _, _ => False
  end.

Lemma enc_tuple_cons c cs : enc_tuple (c :: cs) = enc_comp c ++ enc_tuple cs.
Proof. reflexivity. Qed.

Lemma tuple_ind2 (P : list comp -> list comp -> Prop) :
  P [] [] ->
  (forall c d cs ds, ty_of c = ty_of d -> comp_ok c -> comp_ok d -> P cs ds -> P (c :: cs) (d :: ds)) ->
  forall cs ds, map ty_of cs = map ty_of ds -> Forall comp_ok cs -> Forall comp_ok ds -> P cs ds.
Proof.
  intros P0 PS cs; induction cs as [|c cs IH]; intros [|d ds] T Hc Hd; try discriminate; [exact P0|].
  injection T as T1 T2. inversion Hc; inversion Hd; subst. apply PS; auto.
Qed.

Theorem enc_tuple_pf cs ds :
  map ty_of cs = map ty_of ds -> Forall comp_ok cs -> Forall comp_ok ds ->
  pf_pair (enc_tuple cs) (enc_tuple ds).
Proof.
  revert cs ds. apply tuple_ind2; [now apply pf_pair_same_length|].
  intros c d cs ds T Hc Hd IH. rewrite !enc_tuple_cons. apply pf_pair_app; [now apply comp_pf|exact IH].
Qed.

Theorem enc_tuple_order cs ds :
  map ty_of cs = map ty_of ds -> Forall comp_ok cs -> Forall comp_ok ds ->
  (lex_lt (enc_tuple cs) (enc_tuple ds) <-> tuple_lt cs ds).
Proof.
  revert cs ds. apply tuple_ind2; [split; [discriminate|contradiction]|].
  intros c d cs ds T Hc Hd IH. cbn [tuple_lt].
  rewrite <- IH, <- (comp_order c d T Hc Hd), <- (comp_eq_iff c d T Hc Hd), <- lex_compare_eq.
  unfold lex_lt. rewrite !enc_tuple_cons, lex_compare_app_pf by now apply comp_pf.
  destruct (lex_compare (enc_comp c) (enc_comp d)); intuition discriminate.
Qed.

Theorem enc_tuple_eq_iff cs ds :
  map ty_of cs = map ty_of ds -> Forall comp_ok cs -> Forall comp_ok ds ->
  (enc_tuple cs = enc_tuple ds <-> map comp_canon cs = map comp_canon ds).
Proof.
  revert cs ds. apply tuple_ind2; [tauto|].
  intros c d cs ds T Hc Hd IH. rewrite !enc_tuple_cons. cbn [map].
  pose proof (comp_eq_iff c d T Hc Hd) as Q. split.
  - intros [E1 E2]%app_inj_pf; [|now apply comp_pf]. f_equal; tauto.
  - intros E. injection E as E1 E2. f_equal; tauto.
Qed.

Theorem enc_tuple_prefix_free cs ds :
  map ty_of cs = map ty_of ds -> Forall comp_ok cs -> Forall comp_ok ds ->
  is_prefix (enc_tuple cs) (enc_tuple ds) = true -> enc_tuple cs = enc_tuple ds.
Proof. intros T Hc Hd. apply enc_tuple_pf; assumption. Qed.

Theorem dec_enc_uint n v : in_u n v -> dec_uint (enc_uint n v) = v.
Proof. apply be_value_be_bytes. Qed.

Theorem dec_enc_int n v : (1 <= n)%nat -> in_i n v -> dec_int (enc_int n v) = v.
Proof.
  intros Hn Hv. unfold dec_int, enc_int.
  rewrite be_bytes_length, be_value_be_bytes by now apply in_i_shift. lia.
Qed.

Theorem dec_enc_float f x : fmt_ok f -> fword f x -> dec_float f (enc_float f x) = fcanon f x.
Proof.
  intros Hf Hx. unfold dec_float, enc_float.
  destruct (fmt_facts f Hf) as (_ & _ & _ & _ & W).
  pose proof (enc_float_word_range f x Hf Hx) as R. unfold fword in R. rewrite W in R.
  rewrite be_value_be_bytes by assumption. now apply dec_enc_float_word.
Qed.

Lemma take_app (h r : list Z) n : length h = n -> take n (h ++ r) = Some (h, r).
Proof.
  intros <-. unfold take. rewrite app_length.
  replace (Nat.leb (length h) (length h + length r)) with true by (symmetry; apply Nat.leb_le; lia).
  rewrite firstn_app, Nat.sub_diag, firstn_all, firstn_O, app_nil_r.
  rewrite skipn_app, Nat.sub_diag, skipn_all. reflexivity.
Qed.

Definition fixed_comp (c : comp) : Prop := match c with CText _ => False | _ => True end.

Lemma dec_enc_comp c r : comp_ok c -> fixed_comp c ->
  dec_comp (ty_of c) (enc_comp c ++ r) = Some (comp_canon c, r).
Proof.
  destruct c as [n v|n v|f x|t]; cbn [comp_ok fixed_comp ty_of dec_comp enc_comp comp_canon]; intros Hc Hf; try contradiction.
  - rewrite (take_app (enc_uint n v) r n) by apply be_bytes_length. now rewrite dec_enc_uint.
  - destruct Hc as [Hn Hv]. rewrite (take_app (enc_int n v) r n) by apply be_bytes_length. now rewrite dec_enc_int.
  - destruct Hc as [Hf' Hx]. rewrite (take_app (enc_float f x) r (fbytes f)) by apply be_bytes_length.
    now rewrite dec_enc_float.
Qed.

Theorem decode_encode_seq cs : Forall comp_ok cs -> Forall fixed_comp cs ->
  decode_seq (map ty_of cs) (enc_tuple cs) = Some (map comp_canon cs).
Proof.
  induction cs as [|c cs IH]; intros Hc Hf; [reflexivity|].
  inversion Hc; inversion Hf; subst.
  rewrite enc_tuple_cons. cbn [map decode_seq].
  rewrite dec_enc_comp by assumption. now rewrite IH.
Qed.

Lemma ensure_available_buf s r : e_buf (ensure_available s r) = e_buf s.
Proof. unfold ensure_available. destruct (_ <? _); reflexivity. Qed.

Lemma append_buf s bs : e_buf (append s bs) = e_buf s ++ bs.
Proof. unfold append. cbn. now rewrite ensure_available_buf. Qed.

Lemma enc_step_buf s c : e_buf (enc_step s (EEnc c)) = e_buf s ++ enc_comp c.
Proof.
  destruct c; cbn [enc_step enc_comp]; try apply append_buf.
  rewrite !append_buf, ensure_available_buf. unfold enc_text. now rewrite <- !app_assoc.
Qed.

Theorem enc_run_view s ops : e_buf (enc_run s ops) = since_reset (e_buf s) ops.
Proof.
  unfold enc_run. revert s; induction ops as [|o ops IH]; intros s; cbn [fold_left since_reset]; [reflexivity|].
  rewrite IH. destruct o as [|c]; [reflexivity|]. now rewrite enc_step_buf.
Qed.

Lemma bit_ceil_ge n : n <= bit_ceil n.
Proof.
  unfold bit_ceil. destruct (n <=? 1) eqn:E; [lia|].
  apply Z.log2_up_spec. lia.
Qed.

Definition enc_inv (s : encst) : Prop := Z.of_nat (length (e_buf s)) <= e_cap s.

Lemma ensure_available_cap s r : Z.of_nat (length (e_buf s)) + r <= e_cap (ensure_available s r).
Proof.
  unfold ensure_available. destruct (e_cap s <? _) eqn:E; cbn [e_buf e_cap]; [apply bit_ceil_ge|lia].
Qed.

(** every append makes room first, so it re-establishes the invariant by itself *)
Lemma append_inv s bs : enc_inv (append s bs).
Proof.
  unfold append, enc_inv. cbn [e_buf e_cap]. rewrite app_length, ensure_available_buf.
  pose proof (ensure_available_cap s (Z.of_nat (length bs))). lia.
Qed.

Theorem enc_run_inv s ops : enc_inv s -> enc_inv (enc_run s ops).
Proof.
  unfold enc_run. revert s; induction ops as [|o ops IH]; intros s H; cbn [fold_left]; [exact H|].
  apply IH. destruct o as [|c].
  - unfold enc_inv in *. cbn. lia.
  - destruct c; apply append_inv.
Qed.
