(** Soundness of the linearizability witness validator [lin_ok] of Lin/LinCheck.v:
    an accepted order yields a permutation of the history that respects real
    time and is sequentially legal. *)
From Coq Require Import List Bool Arith Lia Permutation.
From Unodb Require Import Lin.LinCheck.
Import ListNotations.

Lemma nodupb_NoDup : forall l, nodupb l = true -> NoDup l.
Proof.
  induction l as [|x l IH]; intros H.
  - constructor.
  - cbn [nodupb] in H. apply andb_true_iff in H. destruct H as [Hx Hl].
    constructor.
    + intros Hin. apply negb_true_iff in Hx.
      assert (Hex : existsb (Nat.eqb x) l = true).
      { apply existsb_exists. exists x. split; [exact Hin | apply Nat.eqb_refl]. }
      rewrite Hex in Hx. discriminate Hx.
    + apply IH. exact Hl.
Qed.

Lemma pick_spec : forall (h : list call) (d : call) order l,
  pick h order = Some l ->
  l = map (fun i => nth i h d) order /\ Forall (fun i => i < length h) order.
Proof.
  intros h d. induction order as [|i order IH]; intros l H.
  - cbn in H. inversion H. split; [reflexivity | constructor].
  - unfold pick in H. cbn [fold_right] in H. fold (pick h order) in H.
    destruct (nth_error h i) as [c|] eqn:Hi; [|discriminate H].
    destruct (pick h order) as [l'|] eqn:Hp; [|discriminate H].
    inversion H; subst l. clear H.
    destruct (IH l' eq_refl) as [Hl Hall].
    split.
    + cbn [map]. rewrite (nth_error_nth h i d Hi). f_equal. exact Hl.
    + constructor; [|exact Hall].
      apply nth_error_Some. rewrite Hi. discriminate.
Qed.

Lemma map_nth_seq : forall (A : Type) (d : A) (h : list A),
  map (fun i => nth i h d) (seq 0 (length h)) = h.
Proof.
  intros A d. induction h as [|a h IH].
  - reflexivity.
  - cbn [length seq map nth]. f_equal.
    rewrite <- seq_shift, map_map. exact IH.
Qed.

Lemma pick_perm : forall (h : list call) order l,
  length order = length h -> NoDup order -> pick h order = Some l -> Permutation l h.
Proof.
  intros h order l Hlen Hnd Hp.
  destruct h as [|d h'].
  - destruct order; [|discriminate Hlen]. cbn in Hp. inversion Hp. constructor.
  - remember (d :: h') as h eqn:Hh.
    destruct (pick_spec h d order l Hp) as [Hl Hall].
    assert (Hperm : Permutation order (seq 0 (length h))).
    { apply NoDup_Permutation_bis.
      - exact Hnd.
      - rewrite seq_length, Hlen. apply le_n.
      - intros i Hin. apply in_seq. rewrite Forall_forall in Hall.
        specialize (Hall i Hin). lia. }
    apply (Permutation_map (fun i => nth i h d)) in Hperm.
    rewrite map_nth_seq in Hperm. rewrite Hl. exact Hperm.
Qed.

Theorem lin_ok_sound : forall init h order,
  lin_ok init h order = true ->
  exists l, Permutation l h /\ rt_ok l = true /\ seq_legal init l = true.
Proof.
  intros init h order H. unfold lin_ok in H.
  apply andb_true_iff in H. destruct H as [H Hpick].
  apply andb_true_iff in H. destruct H as [Hlen Hnd].
  apply Nat.eqb_eq in Hlen. apply nodupb_NoDup in Hnd.
  destruct (pick h order) as [l|] eqn:Hp; [|discriminate Hpick].
  apply andb_true_iff in Hpick. destruct Hpick as [Hrt Hseq].
  exists l. split; [|split].
  - exact (pick_perm h order l Hlen Hnd Hp).
  - exact Hrt.
  - exact Hseq.
Qed.
