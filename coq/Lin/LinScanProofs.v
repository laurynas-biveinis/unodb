(** C09, second part, proofs: in a legal sequence of calls ([seq_legal]) the
    successor queries of a forward scan form an abstract scan ([scan_fwd],
    Olc/ScanSpec.v) over the maps the sequence goes through.  Real-time order
    ([rt_ok]) is used by [rt_positions] only: a call that returned before another
    was invoked stands before it in the sequence. *)
From Coq Require Import List ZArith Bool Lia.
From Unodb Require Import Base.Lex Lin.LinCheck Olc.ScanSpec Lin.LinScan.
Import ListNotations.
Local Open Scope Z_scope.

Lemma rt_before : forall l i j c d,
  rt_ok l = true -> (j < i)%nat -> nth_error l j = Some d -> nth_error l i = Some c ->
  (c_ret c <? c_inv d)%nat = false.
Proof.
  induction l as [|x l IH]; intros i j c d Hrt Hji Hj Hi.
  - destruct j; discriminate.
  - cbn [rt_ok] in Hrt. apply andb_true_iff in Hrt as [Hall Hrt].
    destruct i as [|i]; [lia|]. cbn [nth_error] in Hi.
    destruct j as [|j]; cbn [nth_error] in Hj.
    + injection Hj as Hxd. subst x.
      rewrite forallb_forall in Hall. apply nth_error_In in Hi.
      apply Hall in Hi. now apply negb_true_iff in Hi.
    + apply (IH i j c d Hrt); [lia|exact Hj|exact Hi].
Qed.

Lemma rt_positions : forall l i j c d,
  rt_ok l = true -> nth_error l i = Some c -> nth_error l j = Some d -> i <> j ->
  (c_ret c < c_inv d)%nat -> (i < j)%nat.
Proof.
  intros l i j c d Hrt Hi Hj Hne Hlt.
  destruct (Nat.lt_trichotomy i j) as [H|[H|H]]; [exact H|contradiction|].
  pose proof (rt_before l i j c d Hrt H Hj Hi) as Hf.
  apply Nat.ltb_ge in Hf. lia.
Qed.

Lemma in_next_single b s k : in_next [b] s None [k] = true <-> nonstrict_bound b s <= k.
Proof.
  unfold in_next, nonstrict_bound. rewrite andb_true_r. destruct s.
  - rewrite lex_ltb_single. lia.
  - rewrite lex_leb_single. lia.
Qed.

Definition s_min_spec (p : list Z -> bool) (m : smap) (r : option (list Z * list Z)) : Prop :=
  match r with
  | Some (k, v) =>
      p k = true /\ s_get k m = Some v /\
      forall k', p k' = true -> s_get k' m <> None -> lex_ltb k' k = false
  | None => forall k', p k' = true -> s_get k' m = None
  end.

Lemma lower_cons (p : list Z -> bool) k v m k0 :
  lex_ltb k k0 = false ->
  (forall k', p k' = true -> s_get k' m <> None -> lex_ltb k' k0 = false) ->
  forall k', p k' = true -> s_get k' ((k, v) :: m) <> None -> lex_ltb k' k0 = false.
Proof.
  intros Hk Hm k' Hp' Hg'. cbn [s_get] in Hg'. destruct (lex_eqb k' k) eqn:He.
  - apply lex_eqb_eq in He. subst k'. exact Hk.
  - apply Hm; assumption.
Qed.

Lemma s_min_ok p m : s_min_spec p m (s_min p m).
Proof.
  induction m as [|[k v] m IH]; cbn [s_min].
  - intros k' _. reflexivity.
  - destruct (p k) eqn:Hpk.
    + assert (Hk : s_get k ((k, v) :: m) = Some v) by (cbn [s_get]; now rewrite lex_eqb_refl).
      destruct (s_min p m) as [[k1 v1]|]; cbn [s_min_spec] in IH.
      * destruct IH as (Hp1 & Hg1 & Hl1).
        destruct (lex_ltb k1 k) eqn:Hlt; cbn [s_min_spec].
        -- split; [exact Hp1|]. split.
           ++ cbn [s_get]. rewrite (lex_ltb_not_eqb _ _ Hlt). exact Hg1.
           ++ apply lower_cons; [apply lex_ltb_asym; exact Hlt|exact Hl1].
        -- split; [exact Hpk|]. split; [exact Hk|].
           apply lower_cons; [apply lex_ltb_irrefl|].
           intros k' Hp' Hg'. exact (lex_ltb_false_trans k' k1 k (Hl1 k' Hp' Hg') Hlt).
      * split; [exact Hpk|]. split; [exact Hk|].
        apply lower_cons; [apply lex_ltb_irrefl|].
        intros k' Hp' Hg'. exfalso. apply Hg'. apply IH. exact Hp'.
    + (* [k] is not admissible: [s_get] at admissible keys does not see the new entry *)
      assert (Hne : forall k', p k' = true -> s_get k' ((k, v) :: m) = s_get k' m).
      { intros k' Hp'. cbn [s_get]. destruct (lex_eqb k' k) eqn:He; [|reflexivity].
        apply lex_eqb_eq in He. congruence. }
      destruct (s_min p m) as [[k1 v1]|]; cbn [s_min_spec] in IH |- *.
      * destruct IH as (Hp1 & Hg1 & Hl1). split; [exact Hp1|]. split.
        -- rewrite (Hne k1 Hp1). exact Hg1.
        -- intros k' Hp'. rewrite (Hne k' Hp'). apply Hl1. exact Hp'.
      * intros k' Hp'. rewrite (Hne k' Hp'). apply IH. exact Hp'.
Qed.

Lemma seq_legal_nth : forall l init i c,
  seq_legal init l = true -> nth_error l i = Some c ->
  lres_eqb (snd (s_apply (state_at init l i) (c_op c))) (c_res c) = true.
Proof.
  induction l as [|x l IH]; intros init i c Hleg Hi.
  - destruct i; discriminate.
  - cbn [seq_legal] in Hleg. destruct (s_apply init (c_op x)) as [m' r] eqn:Ha.
    apply andb_true_iff in Hleg as [Hr Hleg].
    destruct i as [|i]; cbn [nth_error] in Hi.
    + injection Hi as Hxc. subst x. cbn [state_at]. rewrite Ha. exact Hr.
    + cbn [state_at]. rewrite Ha. cbn [fst]. apply IH; assumption.
Qed.

Lemma query_min : forall init l i c b s r,
  seq_legal init l = true -> nth_error l i = Some c -> is_query c b s r ->
  s_min (in_next [b] s None) (state_at init l i) =
  match r with Some (k, v) => Some ([k], v) | None => None end.
Proof.
  intros init l i c b s r Hleg Hi [Hop Hres].
  pose proof (seq_legal_nth l init i c Hleg Hi) as H.
  rewrite Hop, Hres in H. cbn [s_apply snd] in H.
  destruct (s_min (in_next [b] s None) (state_at init l i)) as [[k0 v0]|];
    destruct r as [[k v]|]; cbn [lres_eqb] in H; try discriminate; [|reflexivity].
  apply andb_true_iff in H as [Hk Hv].
  apply lex_eqb_eq in Hk. apply lex_eqb_eq in Hv. now subst.
Qed.

Lemma query_spec : forall init l i c b s r,
  seq_legal init l = true -> nth_error l i = Some c -> is_query c b s r ->
  s_min_spec (in_next [b] s None) (state_at init l i)
             (match r with Some (k, v) => Some ([k], v) | None => None end).
Proof.
  intros init l i c b s r Hleg Hi Hq.
  rewrite <- (query_min init l i c b s r Hleg Hi Hq). apply s_min_ok.
Qed.

Lemma query_delivers : forall f init l i c b s k v,
  seq_legal init l = true -> nth_error l i = Some c -> is_query c b s (Some (k, v)) ->
  least_ge (H_of f init l i) (nonstrict_bound b s) k /\ H_of f init l i k = Some (f v).
Proof.
  intros f init l i c b s k v Hleg Hi Hq.
  destruct (query_spec init l i c b s _ Hleg Hi Hq) as (Hp & Hg & Hl).
  assert (HH : H_of f init l i k = Some (f v)).
  { unfold H_of. rewrite Hg. reflexivity. }
  split; [|exact HH]. unfold least_ge. split; [now apply in_next_single|]. split.
  - rewrite HH. discriminate.
  - intros k' Hlo Hlt. unfold H_of.
    destruct (s_get [k'] (state_at init l i)) as [v'|] eqn:Hg'; [|reflexivity]. exfalso.
    assert (Hf : lex_ltb [k'] [k] = false).
    { apply Hl; [now apply in_next_single|]. rewrite Hg'. discriminate. }
    apply lex_ltb_single in Hlt. congruence.
Qed.

Lemma scan_fwd_earlier : forall H t t' lo ds,
  (t' <= t)%nat -> scan_fwd H t lo ds -> scan_fwd H t' lo ds.
Proof.
  intros H t t' lo ds Hle Hs. inversion Hs as [|t0 lo0 t1 k v ds0 Ht Hl Hv Hrest]; subst.
  - apply sf_nil.
  - eapply sf_cons; eauto. lia.
Qed.

Lemma chain_scan_fwd : forall f init l p b s ds,
  seq_legal init l = true -> chain l p b s ds ->
  scan_fwd (H_of f init l) p (nonstrict_bound b s) (deliveries f ds).
Proof.
  intros f init l p b s ds Hleg Hc.
  induction Hc as [p b s|p b s i c k v ds Hpi Hi Hq Hc IH]; cbn [deliveries map fst snd].
  - apply sf_nil.
  - destruct (query_delivers f init l i c b s k v Hleg Hi Hq) as [Hl Hv].
    apply sf_cons with (t1 := i); [exact Hpi|exact Hl|exact Hv|].
    apply scan_fwd_earlier with (t := S i); [lia|]. exact IH.
Qed.

Lemma chain_exhausted : forall f init l i c b s,
  seq_legal init l = true -> nth_error l i = Some c -> is_query c b s None ->
  exhausted (H_of f init l) i (nonstrict_bound b s).
Proof.
  intros f init l i c b s Hleg Hi Hq k Hk.
  unfold H_of. rewrite (query_spec init l i c b s None Hleg Hi Hq [k]); [reflexivity|].
  now apply in_next_single.
Qed.

Print Assumptions rt_positions.
Print Assumptions chain_scan_fwd.
Print Assumptions chain_exhausted.
