(** C14 (progress accounting, one lock): in the optimistic-lock acceptor a
    thread is sent back (failed check / failed upgrade) or made to wait
    (read-lock on a write-locked word) only because of a write acquisition of
    the same lock: every failed validation of a section is charged to a
    successful upgrade that happened after the section was opened, and a
    waiting reader faces a word that has a holder.  Conversely, while nobody
    acquires the lock, every section validates, every upgrade succeeds and no
    read-lock has to wait. *)
From Coq Require Import List ZArith Lia.
From Unodb Require Import Lock.LockModel Lock.LockProofs.
Import ListNotations.
Local Open Scope Z_scope.

Definition is_upgrade_ok (e : event) : bool :=
  match e with EUpgrade _ _ true => true | _ => false end.

Lemma upgrades_in m : upgrades m <> O -> exists t v, In (EUpgrade t v true) m.
Proof.
  induction m as [|e m IH]; cbn; [congruence|].
  destruct e as [| | |t v [|]| | | |]; try (intros H; destruct (IH H) as (t' & v' & X)); eauto.
Qed.

Lemma moved_means_upgrade s0 m s2 :
  LInv s0 -> w_is_free (lw s0) = true -> lrun s0 m = Some s2 -> lw s2 <> lw s0 ->
  exists t' v', In (EUpgrade t' v' true) m.
Proof.
  intros I F R N. apply upgrades_in. intros U. apply N, (frozen m s0 s2 I R (free_inv _ I F) U).
Qed.

Lemma section_split s pre t v mid e post s' :
  LInv s -> lrun s (pre ++ ERLock t v :: mid ++ e :: post) = Some s' ->
  exists s0 s1 s2, LInv s0 /\ lw s0 = v /\ lrun s0 mid = Some s1 /\ lstep s1 e = Some s2.
Proof.
  intros I R. apply lrun_mid in R as (s0 & s0' & R0 & S0 & R). pose proof (lrun_inv _ _ _ I R0) as I0.
  pose proof (lstep_shape _ _ _ I0 S0) as Sh. inversion Sh; subst s0'. apply lrun_mid in R as (s1 & s2 & R1 & S1 & _).
  exists s0, s1, s2. split; [exact I0|]. split; [symmetry; exact (lstep_obs _ _ _ S0)|auto].
Qed.

Theorem failed_check_charged s pre t v mid obs post s' :
  LInv s -> lrun s (pre ++ ERLock t v :: mid ++ ECheck t v obs :: post) = Some s' ->
  w_is_free v = true -> obs <> v ->
  exists t' v', In (EUpgrade t' v' true) mid.
Proof.
  intros I R F N. destruct (section_split _ _ _ _ _ _ _ _ I R) as (s0 & s1 & s2 & I0 & <- & Rm & S).
  apply (moved_means_upgrade s0 mid s1 I0 F Rm). now rewrite <- (lstep_obs _ _ _ S).
Qed.

Theorem failed_upgrade_charged s pre t v mid post s' :
  LInv s -> lrun s (pre ++ ERLock t v :: mid ++ EUpgrade t v false :: post) = Some s' ->
  w_is_free v = true ->
  exists t' v', In (EUpgrade t' v' true) mid.
Proof.
  intros I R F. destruct (section_split _ _ _ _ _ _ _ _ I R) as (s0 & s1 & s2 & I0 & <- & Rm & S).
  apply (moved_means_upgrade s0 mid s1 I0 F Rm). intros E.
  destruct (lstep_obs _ _ _ S) as (_ & O). discriminate (proj2 O (eq_sym E)).
Qed.

Lemma section_glue s p e1 s0 m e2 s2 :
  lrun s (p ++ [e1]) = Some s0 -> lrun s0 (m ++ [e2]) = Some s2 -> lrun s (p ++ e1 :: m ++ [e2]) = Some s2.
Proof. intros P R. change (p ++ e1 :: m ++ [e2]) with (p ++ [e1] ++ m ++ [e2]). now rewrite app_assoc, lrun_app, P. Qed.

(** a read-lock that has to wait faces exactly one holder *)
Theorem wait_has_holder s t obs :
  LInv s -> lstep s (ERLock t obs) = Some s -> w_is_write_locked obs = true ->
  exists u, guards s = [u].
Proof. intros I S W. rewrite (lstep_obs _ _ _ S) in W. now apply locked_inv. Qed.

(** m: a period without write acquisition, entered with no guard held.  Last
    conjunct: an upgrade attempt at the current word cannot fail (it succeeds,
    which ends the period). *)
Theorem quiet_period s m s' :
  LInv s -> guards s = [] -> upgrades m = O -> lrun s m = Some s' ->
  w_is_write_locked (lw s) = false /\
  (forall a t obs b, m = a ++ ERLock t obs :: b -> obs = lw s) /\
  (forall a t v obs b, m = a ++ ECheck t v obs :: b -> obs = lw s) /\
  (forall a t v b, m = a ++ EUpgrade t v false :: b -> v <> lw s).
Proof.
  intros I G Q R.
  assert (K : forall a e b, m = a ++ e :: b -> exists sa sb, lw sa = lw s /\ lstep sa e = Some sb).
  { intros a e b ->. apply lrun_mid in R as (sa & sb & Ra & S & _). rewrite upgrades_app in Q.
    exists sa, sb. split; [|exact S]. apply (frozen a s sa I Ra G). lia. }
  split; [|split; [|split]].
  - destruct (w_is_write_locked (lw s)) eqn:WL; [|reflexivity].
    apply (locked_inv _ I) in WL as (u & X). congruence.
  - intros a t obs b E. destruct (K _ _ _ E) as (sa & sb & <- & S). exact (lstep_obs _ _ _ S).
  - intros a t v obs b E. destruct (K _ _ _ E) as (sa & sb & <- & S). exact (lstep_obs _ _ _ S).
  - intros a t v b E. destruct (K _ _ _ E) as (sa & sb & <- & S).
    destruct (lstep_obs _ _ _ S) as (_ & O). intros ->. discriminate (proj2 O eq_refl).
Qed.
