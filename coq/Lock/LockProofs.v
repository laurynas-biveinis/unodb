(** C07: proofs about the optimistic-lock acceptor.  Everything is derived
    from what one accepted step does to a state satisfying [LInv]
    ([lstep_shape], [lstep_obs]) and an induction over accepted runs
    ([lrun_LInv_ind]). *)
From Coq Require Import List ZArith Lia Bool.
From Unodb Require Import Lock.LockModel.
Import ListNotations.
Local Open Scope Z_scope.

Ltac Zify.zify_post_hook ::= Z.div_mod_to_equations.
Local Arguments Nat.ltb : simpl never.
Local Arguments Z.modulo : simpl never.
Local Arguments Z.div : simpl never.
Local Arguments Z.mul : simpl never.
Local Arguments Z.add : simpl never.

Definition LInv (s : lstate) : Prop :=
  0 <= lw s /\
  ((guards s = [] /\ (lw s mod 4 = 0 \/ lw s = 1)) \/ (exists t, guards s = [t] /\ lw s mod 4 = 2)).

Lemma linit_inv n : LInv (linit n).
Proof. unfold LInv, linit; cbn. split; [lia|left; split; [reflexivity|left; reflexivity]]. Qed.

Lemma holds_inv s t : LInv s -> holds s t = true -> guards s = [t] /\ lw s mod 4 = 2.
Proof.
  intros (_ & [(G & _)|(t' & G & M)]) H; unfold holds in H; rewrite G in H; cbn in H; [discriminate|].
  rewrite orb_false_r in H. apply Nat.eqb_eq in H. subst. auto.
Qed.

Lemma free_inv s : LInv s -> w_is_free (lw s) = true -> guards s = [].
Proof.
  unfold w_is_free. intros (_ & [(G & _)|(t' & G & M)]) H; [exact G|].
  apply Z.eqb_eq in H. lia.
Qed.

Lemma obsolete_inv s : LInv s -> lw s = 1 -> guards s = [].
Proof. intros (_ & [(G & _)|(t' & G & M)]) H; [exact G|]. rewrite H in M. discriminate. Qed.

Lemma locked_inv s : LInv s -> (w_is_write_locked (lw s) = true <-> exists u, guards s = [u]).
Proof.
  unfold w_is_write_locked. intros (P & [(G & M)|(t & G & M)]); rewrite G.
  - split; [|intros (u & X); discriminate]. intros E. apply Z.eqb_eq in E. lia.
  - split; [eauto|]. intros _. apply Z.eqb_eq. lia.
Qed.

Lemma free_not_1 v : w_is_free v = true -> v <> 1.
Proof. intros F ->. discriminate. Qed.

Theorem exclusive s : LInv s ->
  (length (guards s) <= 1)%nat /\ (guards s <> [] <-> w_is_write_locked (lw s) = true).
Proof.
  intros I. rewrite (locked_inv s I). destruct I as (_ & [(G & _)|(t & G & _)]); rewrite G; cbn; (split; [lia|]).
  - split; [congruence|intros (u & X); discriminate].
  - split; [eauto|discriminate].
Qed.

Lemma lstep_obs s e s' : lstep s e = Some s' ->
  match e with
  | ERLock _ obs | ECheck _ _ obs => obs = lw s
  | EUpgrade _ v ok => w_is_free v = true /\ (ok = true <-> v = lw s)
  | ELoad _ i x => nth_error (lmem s) i = Some x
  | _ => True
  end.
Proof.
  destruct e as [t obs|t|t v obs|t v ok|t neww|t|t i x|t i x]; cbn; auto.
  - destruct (Z.eqb_spec obs (lw s)); [auto|discriminate].
  - destruct (Z.eqb_spec obs (lw s)); [auto|discriminate].
  - destruct (w_is_free v); cbn; [|discriminate].
    destruct (Z.eqb_spec v (lw s)), ok; cbn; try discriminate; intuition discriminate.
  - destruct (nth_error (lmem s) i) as [y|]; [|discriminate].
    destruct (Z.eqb_spec x y); [congruence|discriminate].
Qed.

Definition reads (e : event) : bool :=
  match e with
  | ERLock _ _ | ESpin _ | ECheck _ _ _ | ELoad _ _ _ | EUpgrade _ _ false => true
  | _ => false
  end.

Inductive shape (s : lstate) : event -> lstate -> Prop :=
| sh_read e : reads e = true -> shape s e s
| sh_upgrade t : guards s = [] -> lw s mod 4 = 0 ->
    shape s (EUpgrade t (lw s) true) {| lw := lw s + 2; lmem := lmem s; guards := [t] |}
| sh_unlock t : guards s = [t] -> lw s mod 4 = 2 ->
    shape s (EWUnlock t (lw s + 2)) {| lw := lw s + 2; lmem := lmem s; guards := [] |}
| sh_obsolete t : guards s = [t] -> lw s mod 4 = 2 ->
    shape s (EWObsolete t) {| lw := 1; lmem := lmem s; guards := [] |}
| sh_store t i x : guards s = [t] \/ lw s = 1 ->
    shape s (EStore t i x) {| lw := lw s; lmem := set_nth i x (lmem s); guards := guards s |}.

Lemma lstep_shape s e s' : LInv s -> lstep s e = Some s' -> shape s e s'.
Proof.
  intros I H. destruct e as [t obs|t|t v obs|t v ok|t neww|t|t i x|t i x]; cbn in H.
  - destruct (obs =? lw s); inversion H; subst; now constructor.
  - inversion H; subst; now constructor.
  - destruct (obs =? lw s); inversion H; subst; now constructor.
  - destruct (w_is_free v) eqn:F; cbn in H; [|discriminate].
    destruct (Z.eqb_spec v (lw s)), ok; cbn in H; try discriminate; inversion H; subst; try now constructor.
    rewrite (free_inv s I F). apply Z.eqb_eq in F. apply sh_upgrade; [now apply free_inv, Z.eqb_eq|exact F].
  - destruct (holds s t) eqn:Hh; cbn in H; [|discriminate].
    destruct (Z.eqb_spec neww (lw s + 2)); inversion H; subst.
    destruct (holds_inv s t I Hh) as (G & M). rewrite G. cbn. rewrite Nat.eqb_refl. now constructor.
  - destruct (holds s t) eqn:Hh; inversion H; subst.
    destruct (holds_inv s t I Hh) as (G & M). rewrite G. cbn. rewrite Nat.eqb_refl. now constructor.
  - destruct (i <? length (lmem s))%nat; [|now rewrite andb_false_r in H]. rewrite andb_true_r in H.
    destruct (holds s t) eqn:Hh; cbn in H.
    + inversion H; subst. constructor. left. apply (holds_inv s t I Hh).
    + destruct (w_is_obsolete (lw s)) eqn:O; inversion H; subst. constructor. right. now apply Z.eqb_eq.
  - destruct (nth_error (lmem s) i); [|discriminate]. destruct (x =? z); inversion H; subst; now constructor.
Qed.

Lemma reads_upgrades e tr : reads e = true -> upgrades (e :: tr) = upgrades tr.
Proof. destruct e as [| | |? ? [|]| | | |]; auto; discriminate. Qed.

Lemma lstep_inv s e s' : LInv s -> lstep s e = Some s' -> LInv s'.
Proof.
  intros I H. pose proof I as (P & _). destruct (lstep_shape _ _ _ I H); auto; unfold LInv; cbn.
  - split; [lia|]. right. eexists. split; [reflexivity|lia].
  - split; [lia|]. left. split; [reflexivity|left; lia].
  - split; [lia|]. left. auto.
Qed.

Lemma lrun_app s a b : lrun s (a ++ b) = match lrun s a with Some s' => lrun s' b | None => None end.
Proof.
  revert s; induction a as [|e a IH]; intros s; cbn; [reflexivity|].
  destruct (lstep s e); auto.
Qed.

Lemma lrun_mid s a e b s' : lrun s (a ++ e :: b) = Some s' ->
  exists s1 s2, lrun s a = Some s1 /\ lstep s1 e = Some s2 /\ lrun s2 b = Some s'.
Proof.
  rewrite lrun_app. destruct (lrun s a) as [s1|]; [|discriminate]. cbn.
  destruct (lstep s1 e) as [s2|] eqn:E; [eauto 6|discriminate].
Qed.

Lemma upgrades_app a b : upgrades (a ++ b) = (upgrades a + upgrades b)%nat.
Proof. induction a as [|[| | |? ? [|]| | | |] a IH]; cbn; auto. Qed.

Lemma lrun_LInv_ind (P : lstate -> list event -> lstate -> Prop) :
  (forall s, LInv s -> P s [] s) ->
  (forall s e s1 tr s', LInv s -> shape s e s1 -> LInv s1 -> lrun s1 tr = Some s' -> P s1 tr s' -> P s (e :: tr) s') ->
  forall tr s s', LInv s -> lrun s tr = Some s' -> P s tr s'.
Proof.
  intros P0 PS. induction tr as [|e tr IH]; intros s s' I H; cbn in H.
  - inversion H; subst. now apply P0.
  - destruct (lstep s e) as [s1|] eqn:E; [|discriminate].
    pose proof (lstep_inv _ _ _ I E) as I1. apply (PS s e s1); auto using lstep_shape.
Qed.

Lemma lrun_inv s tr s' : LInv s -> lrun s tr = Some s' -> LInv s'.
Proof. revert tr s s'. apply (lrun_LInv_ind (fun _ _ s' => LInv s')); auto. Qed.

Lemma reach_inv n p s : lrun (linit n) p = Some s -> LInv s.
Proof. apply lrun_inv, linit_inv. Qed.

Lemma lstates_spec s m (P : lstate -> Prop) :
  Forall P (lstates s m) <-> (forall a b s1, m = a ++ b -> lrun s a = Some s1 -> P s1).
Proof.
  revert s; induction m as [|e m IH]; intros s; cbn [lstates].
  - split.
    + intros F a b s1 E R. symmetry in E. apply app_eq_nil in E as [-> ->]. inversion R; subst. now inversion F.
    + intros F. constructor; [|constructor]. now apply (F [] []).
  - split.
    + intros F a b s1 E R. inversion F as [|? ? Ps F']; subst. destruct a as [|x a].
      * inversion R; subst. exact Ps.
      * injection E as <- ->. cbn in R. destruct (lstep s e) as [s'|]; [|discriminate].
        apply (proj1 (IH s') F' a b s1 eq_refl R).
    + intros F. constructor; [now apply (F [] (e :: m))|].
      destruct (lstep s e) as [s'|] eqn:E; [|constructor].
      apply IH. intros a b s1 -> R. apply (F (e :: a) b); [reflexivity|]. cbn. now rewrite E.
Qed.

Lemma obsolete_stays : forall m s0 s1, LInv s0 -> lrun s0 m = Some s1 -> lw s0 = 1 -> lw s1 = 1.
Proof.
  apply (lrun_LInv_ind (fun s _ s' => lw s = 1 -> lw s' = 1)); [auto|].
  intros s e s1 tr s' _ Sh _ _ IH W. apply IH. destruct Sh; cbn; lia.
Qed.

Theorem obsolete_final s0 m s1 :
  LInv s0 -> lw s0 = 1 -> lrun s0 m = Some s1 -> lw s1 = 1 /\ guards s1 = [].
Proof.
  intros I O R. pose proof (obsolete_stays _ _ _ I R O). split; [assumption|].
  apply obsolete_inv; eauto using lrun_inv.
Qed.

(** after obsoletion no section can be opened, every open section fails its
    next check and no upgrade succeeds *)
Theorem obsolete_rejects s0 e s1 :
  LInv s0 -> lw s0 = 1 -> lstep s0 e = Some s1 ->
  match e with
  | ERLock _ obs => rlock_opens obs = false /\ rlock_fails obs = true
  | ECheck _ v obs => w_is_free v = true -> check_ok v obs = false
  | EUpgrade _ _ ok => ok = false
  | EWUnlock _ _ | EWObsolete _ => False
  | EStore _ _ _ | ELoad _ _ _ | ESpin _ => True
  end.
Proof.
  intros I W S. pose proof (lstep_obs _ _ _ S) as O. pose proof (lstep_shape _ _ _ I S) as Sh.
  destruct e as [t obs|t|t v obs|t v ok|t neww|t|t i x|t i x]; auto.
  - subst obs. rewrite W. split; reflexivity.
  - subst obs. rewrite W. intros F. apply Z.eqb_neq. now apply free_not_1.
  - destruct O as (F & O). destruct ok; [|reflexivity]. destruct (free_not_1 v F). rewrite <- W. now apply O.
  - inversion Sh; [discriminate|lia].
  - inversion Sh; [discriminate|lia].
Qed.

(** the first free word not yet used grows by 4 with every write acquisition,
    until the word becomes obsolete *)
Definition nextfree (s : lstate) : Z := lw s + (if guards s then 0 else 2).

Lemma lrun_count : forall tr s s', LInv s -> lrun s tr = Some s' ->
  lw s' = 1 \/ nextfree s' = nextfree s + 4 * Z.of_nat (upgrades tr).
Proof.
  apply (lrun_LInv_ind (fun s tr s' => lw s' = 1 \/ nextfree s' = nextfree s + 4 * Z.of_nat (upgrades tr))).
  - intros s _. right. cbn. lia.
  - intros s e s1 tr s' I Sh I1 R [O|IH]; [now left|].
    destruct Sh as [e Rd|t G|t G|t G|t i x G]; [rewrite (reads_upgrades _ _ Rd)|..];
      unfold nextfree in *; cbn [upgrades lw guards] in *.
    + right. exact IH.
    + right. rewrite G in *. lia.
    + right. rewrite G in *. lia.
    + left. now apply (obsolete_stays tr _ s' I1 R).
    + right. exact IH.
Qed.

(** fewer than 2^62 write acquisitions: the 64-bit word of the implementation
    never wraps and coincides with the model's integer *)
Theorem no_wrap n tr s : lrun (linit n) tr = Some s -> Z.of_nat (upgrades tr) < 2 ^ 62 -> 0 <= lw s < 2 ^ 64.
Proof.
  intros H B. pose proof (reach_inv _ _ _ H) as (P & _).
  change (2 ^ 64) with (4 * 2 ^ 62).
  destruct (lrun_count _ _ _ (linit_inv n) H) as [O|C]; [rewrite O; lia|].
  unfold nextfree in C. cbn in C. destruct (guards s); lia.
Qed.

(** while nobody acquires the lock nothing moves *)
Lemma frozen : forall tr s s', LInv s -> lrun s tr = Some s' -> guards s = [] -> upgrades tr = O ->
  lw s' = lw s /\ guards s' = [] /\ (lw s <> 1 -> lmem s' = lmem s).
Proof.
  apply (lrun_LInv_ind (fun s tr s' => guards s = [] -> upgrades tr = O ->
           lw s' = lw s /\ guards s' = [] /\ (lw s <> 1 -> lmem s' = lmem s))); [auto|].
  intros s e s1 tr s' I Sh I1 R IH G U.
  destruct Sh as [e Rd|t G'|t G'|t G'|t i x [G'|O]]; [rewrite (reads_upgrades _ _ Rd) in U|..]; cbn in U; try congruence.
  - now apply IH.
  - destruct (IH G U) as (A & B & _). cbn in A. repeat split; auto. intros N. contradiction.
Qed.

Lemma section_quiet s0 m s2 : LInv s0 -> w_is_free (lw s0) = true -> lrun s0 m = Some s2 -> lw s2 = lw s0 ->
  upgrades m = O.
Proof.
  intros I F R E. pose proof (free_inv _ I F) as G0. rewrite <- E in F.
  pose proof (free_inv s2 (lrun_inv _ _ _ I R) F) as G2.
  destruct (lrun_count _ _ _ I R) as [O|C]; [now apply free_not_1 in F|].
  unfold nextfree in C. rewrite G0, G2 in C. lia.
Qed.

Lemma snapshot_gen s0 m s2 v :
  LInv s0 -> lw s0 = v -> w_is_free v = true -> lrun s0 m = Some s2 -> lw s2 = v ->
  Forall (fun s => lw s = v /\ lmem s = lmem s0 /\ guards s = []) (lstates s0 m).
Proof.
  intros I <- F R E. pose proof (section_quiet _ _ _ I F R E) as U.
  apply lstates_spec. intros a b s1 -> Ra. rewrite upgrades_app in U.
  destruct (frozen a s0 s1 I Ra (free_inv _ I F) ltac:(lia)) as (A & B & C).
  repeat split; auto using free_not_1.
Qed.

Theorem snapshot n p s0 m s2 v :
  lrun (linit n) p = Some s0 -> lw s0 = v -> w_is_free v = true -> lrun s0 m = Some s2 -> lw s2 = v ->
  Forall (fun s => lw s = v /\ lmem s = lmem s0 /\ guards s = []) (lstates s0 m).
Proof. intros H. apply snapshot_gen, (reach_inv _ _ _ H). Qed.

(** every protected load inside a validated section returns the value the
    word had when the section was opened *)
Theorem snapshot_loads s0 m1 t i x m2 s2 v :
  LInv s0 -> lw s0 = v -> w_is_free v = true ->
  lrun s0 (m1 ++ ELoad t i x :: m2) = Some s2 -> lw s2 = v ->
  nth_error (lmem s0) i = Some x.
Proof.
  intros I W F H E. pose proof (snapshot_gen s0 _ s2 v I W F H E) as A.
  apply lrun_mid in H as (s1 & s1' & R1 & S & _).
  destruct (proj1 (lstates_spec _ _ _) A _ _ _ eq_refl R1) as (_ & <- & _). exact (lstep_obs _ _ _ S).
Qed.

(** an upgrade succeeds only if no writer acquired the lock since the section was opened *)
Theorem upgrade_exclusive s0 m s1 t v s2 :
  LInv s0 -> lw s0 = v -> w_is_free v = true ->
  lrun s0 m = Some s1 -> lstep s1 (EUpgrade t v true) = Some s2 ->
  upgrades m = O /\ lmem s1 = lmem s0.
Proof.
  intros I <- F H U. destruct (lstep_obs _ _ _ U) as (_ & E). apply proj1 in E. specialize (E eq_refl).
  pose proof (section_quiet _ _ _ I F H (eq_sym E)) as Q. split; [exact Q|].
  apply (frozen m s0 s1 I H (free_inv _ I F) Q), free_not_1, F.
Qed.
