(** Proofs about the mutex model (Mutex/MutexShape.v, Mutex/MutexModel.v):
    - every non-exempt method of a well-bracketed table executes as one
      complete call of the expected shape;
    - in any admissible interleaving of well-formed threads, a call into the
      wrapped index happens only under the lock, and nobody calls into the
      index while a lock handle returned by get is outstanding. *)
From Coq Require Import List Bool Arith.
From Unodb Require Import Mutex.MutexShape Mutex.MutexModel.
Import ListNotations.
Local Open Scope list_scope.

Ltac pin H :=
  repeat (match type of H with
          | context [match ?x with _ => _ end] =>
              is_var x; destruct x; cbn in H; try discriminate H
          end).

(** 5 is the length of the longest path, a miss in get *)
Lemma direct_exec : forall tbl t hit b n,
  shape_guarded b || shape_get b = true ->
  exists l, exec_body tbl (5 + n) t hit false b = Some l /\ call_shape t l /\
            (In (Return t true) l <-> shape_get b = true /\ hit = true).
Proof.
  intros tbl t hit b n H. apply orb_true_iff in H. destruct H as [H|H].
  - unfold shape_guarded in H. pin H.
    all: exists [Acquire t; Body t f; Release t; Return t false].
    all: split; [reflexivity|]; split; [left; exists f; reflexivity|].
    all: cbn; intuition congruence.
  - unfold shape_get in H. pin H. destruct hit.
    + exists [Acquire t; Body t f; Return t true].
      split; [reflexivity|]. split; [right; exists f; reflexivity|].
      cbn. intuition congruence.
    + exists [Acquire t; Body t f; Release t; Return t false].
      split; [reflexivity|]. split; [left; exists f; reflexivity|].
      cbn. intuition congruence.
Qed.

Lemma exec_retself : forall tbl n t hit f,
  exec_body tbl (S n) t hit false [MRetSelf f] =
  match find_method tbl f with
  | Some m => exec_body tbl n t hit false (m_body m)
  | None => None
  end.
Proof. reflexivity. Qed.

Lemma exec_local_retself : forall tbl n t hit f,
  exec_body tbl (S (S n)) t hit false [MLocal; MRetSelf f] =
  match find_method tbl f with
  | Some m => exec_body tbl n t hit false (m_body m)
  | None => None
  end.
Proof. reflexivity. Qed.

Lemma hands_out_direct : forall tbl m,
  shape_guarded (m_body m) || shape_get (m_body m) = true ->
  hands_out_lock tbl m = shape_get (m_body m).
Proof.
  intros tbl [nm pu stt b] H. unfold hands_out_lock. cbn [m_body] in *.
  apply orb_true_iff in H. destruct H as [H|H].
  - unfold shape_guarded in H. pin H; reflexivity.
  - rewrite H. reflexivity.
Qed.

Lemma delegate_inv : forall tbl b,
  shape_delegate tbl b = true ->
  exists f m', (b = [MRetSelf f] \/ b = [MLocal; MRetSelf f]) /\ find_method tbl f = Some m' /\
               shape_guarded (m_body m') || shape_get (m_body m') = true.
Proof.
  intros tbl b H. unfold shape_delegate in H.
  destruct b as [|s1 [|s2 [|s3 b3]]]; try discriminate H; destruct s1; try discriminate H.
  - destruct (find_method tbl f) as [m'|] eqn:E; [|discriminate H]. exists f, m'. auto.
  - destruct s2; try discriminate H.
    destruct (find_method tbl f) as [m'|] eqn:E; [|discriminate H]. exists f, m'. auto.
  - destruct s2; discriminate H.
Qed.

Theorem call_shape_of_well_bracketed : forall tbl m t hit,
  well_bracketed tbl = true -> In m tbl -> exempt m = false ->
  exists l, exec_method tbl t hit m = Some l /\ call_shape t l /\
            (In (Return t true) l <-> hands_out_lock tbl m = true /\ hit = true).
Proof.
  intros tbl m t hit Hwb Hin Hex.
  unfold well_bracketed in Hwb. rewrite forallb_forall in Hwb.
  specialize (Hwb m Hin). unfold method_ok in Hwb. rewrite Hex in Hwb. cbn [orb] in Hwb.
  apply orb_true_iff in Hwb. unfold exec_method. destruct Hwb as [Hd|Hd].
  - rewrite (hands_out_direct tbl m Hd). exact (direct_exec tbl t hit (m_body m) 3 Hd).
  - destruct (delegate_inv _ _ Hd) as (f & m' & Hb & Hfind & Hd').
    unfold hands_out_lock.
    destruct Hb as [Hb|Hb]; rewrite Hb.
    + rewrite (exec_retself tbl 7). cbn [shape_get orb]. rewrite Hfind.
      exact (direct_exec tbl t hit (m_body m') 2 Hd').
    + rewrite (exec_local_retself tbl 6). cbn [shape_get orb]. rewrite Hfind.
      exact (direct_exec tbl t hit (m_body m') 1 Hd').
Qed.

Inductive phase := PIdle | PAcq | PBody | PRel | PHeld | PBad.

Definition step (s : phase) (e : mev) : phase :=
  match s, e with
  | PIdle, Acquire _ => PAcq
  | PAcq, Body _ _ => PBody
  | PBody, Release _ => PRel
  | PBody, Return _ true => PHeld
  | PRel, Return _ false => PIdle
  | PHeld, HandleRelease _ => PIdle
  | _, _ => PBad
  end.

Fixpoint run (s : phase) (l : list mev) : phase :=
  match l with
  | [] => s
  | e :: l' => run (step s e) l'
  end.

Definition holding (s : phase) : bool :=
  match s with PAcq | PBody | PHeld => true | _ => false end.

Lemma run_app : forall l1 l2 s, run s (l1 ++ l2) = run (run s l1) l2.
Proof.
  induction l1 as [|e l1 IH]; intros l2 s.
  - reflexivity.
  - cbn [app run]. apply IH.
Qed.

Lemma run_bad : forall l, run PBad l = PBad.
Proof.
  induction l as [|e l IH].
  - reflexivity.
  - cbn [run]. exact IH.
Qed.

Lemma thread_wf_run : forall t l, thread_wf t l = true -> run PIdle l <> PBad.
Proof.
  (* along the recursion of [thread_wf], which peels off one whole call at a time *)
  intros t. fix IH 1. intros l Hwf.
  destruct l as [|e1 l1]; [cbn; discriminate|].
  destruct e1; try discriminate Hwf.
  cbn [thread_wf] in Hwf. apply andb_true_iff in Hwf. destruct Hwf as [_ Hwf].
  destruct l1 as [|e2 l2]; [cbn; discriminate|].
  destruct e2; try discriminate Hwf.
  apply andb_true_iff in Hwf. destruct Hwf as [_ Hwf].
  destruct l2 as [|e3 l3]; [cbn; discriminate|].
  destruct e3; try discriminate Hwf.
  - apply andb_true_iff in Hwf. destruct Hwf as [_ Hwf].
    destruct l3 as [|e4 l4]; [cbn; discriminate|].
    destruct e4; try discriminate Hwf.
    destruct holding0; try discriminate Hwf.
    apply andb_true_iff in Hwf. destruct Hwf as [_ Hwf].
    cbn [run step]. apply IH. exact Hwf.
  - destruct holding0; try discriminate Hwf.
    apply andb_true_iff in Hwf. destruct Hwf as [_ Hwf].
    destruct l3 as [|e4 l4]; [cbn; discriminate|].
    destruct e4; try discriminate Hwf.
    apply andb_true_iff in Hwf. destruct Hwf as [_ Hwf].
    cbn [run step]. apply IH. exact Hwf.
Qed.

Definition ev_tid (e : mev) : tid :=
  match e with
  | Acquire u | Body u _ | Release u | Return u _ | HandleRelease u => u
  end.

Lemma thread_events_app : forall t p r,
  thread_events t (p ++ r) = thread_events t p ++ thread_events t r.
Proof.
  intros t p r. unfold thread_events. apply filter_app.
Qed.

Lemma thread_events_one : forall t e,
  thread_events t [e] = if Nat.eqb (ev_tid e) t then [e] else [].
Proof.
  intros t e. destruct e; reflexivity.
Qed.

Definition phase_of (u : tid) (p : list mev) : phase := run PIdle (thread_events u p).

Lemma phase_of_snoc : forall u p e,
  phase_of u (p ++ [e]) =
  if Nat.eqb (ev_tid e) u then step (phase_of u p) e else phase_of u p.
Proof.
  intros u p e. unfold phase_of.
  rewrite thread_events_app, run_app, thread_events_one.
  destruct (Nat.eqb (ev_tid e) u); reflexivity.
Qed.

Lemma phase_of_prefix_ok : forall u p r,
  phase_of u (p ++ r) <> PBad -> phase_of u p <> PBad.
Proof.
  intros u p r H Hb. apply H. unfold phase_of in *.
  rewrite thread_events_app, run_app, Hb. apply run_bad.
Qed.

Lemma holder_after_app : forall p r h,
  holder_after h (p ++ r) = holder_after (holder_after h p) r.
Proof.
  induction p as [|e p IH]; intros r h.
  - reflexivity.
  - destruct e; cbn [app holder_after]; apply IH.
Qed.

Lemma mutex_ok_cons : forall h e p,
  mutex_ok h (e :: p) = mutex_ok h [e] && mutex_ok (holder_after h [e]) p.
Proof.
  intros h e p. destruct e, h as [h|]; cbn [mutex_ok holder_after];
    rewrite ?andb_true_r; reflexivity.
Qed.

Lemma mutex_ok_app : forall p r h,
  mutex_ok h (p ++ r) = true ->
  mutex_ok h p = true /\ mutex_ok (holder_after h p) r = true.
Proof.
  induction p as [|e p IH]; intros r h H.
  - split; [reflexivity | exact H].
  - cbn [app] in H. rewrite mutex_ok_cons in H. apply andb_true_iff in H as [He H].
    rewrite mutex_ok_cons, He, (holder_after_app [e] p). exact (IH r _ H).
Qed.

(** [Some true] takes the mutex, [Some false] gives it back *)
Definition effect (e : mev) : option bool :=
  match e with
  | Acquire _ => Some true
  | Release _ | HandleRelease _ => Some false
  | Body _ _ | Return _ _ => None
  end.

Lemma holding_step : forall s e,
  step s e <> PBad ->
  holding (step s e) = match effect e with Some b => b | None => holding s end.
Proof.
  intros s e H. destruct s, e as [a|a f|a|a [|]|a]; cbn in *; congruence.
Qed.

Lemma mutex_ok_one : forall h e,
  mutex_ok h [e] = true ->
  match effect e with
  | Some true => h = None
  | Some false => h = Some (ev_tid e)
  | None => True
  end.
Proof.
  intros h e H. destruct e, h as [h|]; cbn in *; try congruence; try exact I.
  all: apply andb_true_iff in H; destruct H as [H _]; apply Nat.eqb_eq in H; congruence.
Qed.

Lemma holder_after_one : forall h e,
  holder_after h [e] =
  match effect e with Some true => Some (ev_tid e) | Some false => None | None => h end.
Proof. intros h e. destruct e; reflexivity. Qed.

Lemma inv_step : forall (ph : tid -> phase) (h : option tid) (e : mev),
  (forall u, holding (ph u) = true <-> h = Some u) ->
  mutex_ok h [e] = true ->
  (forall u, (if Nat.eqb (ev_tid e) u then step (ph u) e else ph u) <> PBad) ->
  forall u, holding (if Nat.eqb (ev_tid e) u then step (ph u) e else ph u) = true
            <-> holder_after h [e] = Some u.
Proof.
  intros ph h e Hinv Hm Hok u. specialize (Hok u). specialize (Hinv u).
  apply mutex_ok_one in Hm. rewrite holder_after_one.
  destruct (Nat.eqb_spec (ev_tid e) u) as [E|NE].
  - rewrite (holding_step _ _ Hok). destruct (effect e) as [[|]|].
    + rewrite E. tauto.
    + split; discriminate.
    + exact Hinv.
  - destruct (effect e) as [[|]|]; [subst h..|exact Hinv].
    + split; intros H; [apply Hinv in H; discriminate H | congruence].
    + split; intros H; [apply Hinv in H; congruence | discriminate H].
Qed.

Definition good (p : list mev) : Prop :=
  mutex_ok None p = true /\ forall u, phase_of u p <> PBad.

Lemma good_prefix : forall p r, good (p ++ r) -> good p.
Proof.
  intros p r [Hm Hp]. split.
  - apply (mutex_ok_app p r None). exact Hm.
  - intros u. apply (phase_of_prefix_ok u p r). apply Hp.
Qed.

Lemma good_at : forall tr p r,
  mutex_ok None tr = true -> (forall u, thread_wf u (thread_events u tr) = true) ->
  tr = p ++ r -> good p.
Proof.
  intros tr p r Hm Hwf Htr. apply (good_prefix p r). rewrite <- Htr.
  split; [exact Hm|]. intros u. apply (thread_wf_run u). apply Hwf.
Qed.

Lemma holder_inv : forall p, good p ->
  forall u, holding (phase_of u p) = true <-> holder_after None p = Some u.
Proof.
  induction p as [|e p IH] using rev_ind; intros Hg u.
  - cbn. split; intros H; discriminate H.
  - pose proof (good_prefix p [e] Hg) as Hgp.
    specialize (IH Hgp).
    destruct Hg as [Hm Hp].
    apply mutex_ok_app in Hm. destruct Hm as [_ Hm].
    rewrite holder_after_app, phase_of_snoc.
    apply (inv_step (fun v => phase_of v p) (holder_after None p) e IH Hm).
    intros v. rewrite <- phase_of_snoc. apply Hp.
Qed.

Lemma phase_before_body : forall p t f,
  phase_of t (p ++ [Body t f]) <> PBad -> phase_of t p = PAcq.
Proof.
  intros p t f H. rewrite phase_of_snoc in H. cbn [ev_tid] in H.
  rewrite Nat.eqb_refl in H.
  destruct (phase_of t p); cbn in H; try (exfalso; apply H; reflexivity).
  reflexivity.
Qed.

Theorem body_under_lock : forall tr p t f r,
  mutex_ok None tr = true -> (forall u, thread_wf u (thread_events u tr) = true) ->
  tr = p ++ Body t f :: r -> holder_after None p = Some t.
Proof.
  intros tr p t f r Hm Hwf Htr.
  assert (Hg : good (p ++ [Body t f])).
  { apply (good_at tr _ r Hm Hwf). rewrite <- app_assoc. exact Htr. }
  apply (holder_inv p (good_prefix _ _ Hg) t).
  rewrite (phase_before_body p t f (proj2 Hg t)). reflexivity.
Qed.

Lemma held_until_release : forall p t q,
  good (p ++ Return t true :: q) -> ~ In (HandleRelease t) q ->
  phase_of t (p ++ Return t true :: q) = PHeld.
Proof.
  intros p t. induction q as [|e q IH] using rev_ind; intros Hg Hni.
  - destruct Hg as [_ Hp]. specialize (Hp t).
    rewrite phase_of_snoc in *. cbn [ev_tid] in *. rewrite Nat.eqb_refl in *.
    destruct (phase_of t p); cbn in *; try (exfalso; apply Hp; reflexivity).
    reflexivity.
  - assert (Heq : p ++ Return t true :: q ++ [e] = (p ++ Return t true :: q) ++ [e]).
    { rewrite <- app_assoc. reflexivity. }
    rewrite Heq in *.
    assert (IH' : phase_of t (p ++ Return t true :: q) = PHeld).
    { apply IH.
      - exact (good_prefix _ _ Hg).
      - intros Hin. apply Hni. apply in_or_app. left. exact Hin. }
    destruct Hg as [_ Hp]. specialize (Hp t).
    rewrite phase_of_snoc in *. rewrite IH' in *.
    destruct (Nat.eqb_spec (ev_tid e) t) as [E|NE]; [|reflexivity].
    destruct e; cbn in *; try (exfalso; apply Hp; reflexivity).
    exfalso. apply Hni. apply in_or_app. right. subst. left. reflexivity.
Qed.

Theorem holder_while_handle_held : forall tr p t q r,
  mutex_ok None tr = true -> (forall v, thread_wf v (thread_events v tr) = true) ->
  tr = p ++ Return t true :: q ++ r -> ~ In (HandleRelease t) q ->
  holder_after None (p ++ Return t true :: q) = Some t.
Proof.
  intros tr p t q r Hm Hwf Htr Hni.
  assert (Hg : good (p ++ Return t true :: q)).
  { apply (good_at tr _ r Hm Hwf). rewrite <- app_assoc. exact Htr. }
  apply (holder_inv _ Hg t).
  rewrite (held_until_release p t q Hg Hni). reflexivity.
Qed.

(** nobody, not even [t]: the caller of [Body] would be the holder [t], which
    is in phase [PHeld], not [PAcq] *)
Theorem no_body_while_handle_held : forall tr p t q u f r,
  mutex_ok None tr = true -> (forall v, thread_wf v (thread_events v tr) = true) ->
  tr = p ++ Return t true :: q ++ Body u f :: r -> ~ In (HandleRelease t) q -> False.
Proof.
  intros tr p t q u f r Hm Hwf Htr Hni.
  assert (Htr' : tr = (p ++ Return t true :: q) ++ Body u f :: r).
  { rewrite <- app_assoc. exact Htr. }
  pose proof (holder_while_handle_held tr p t q _ Hm Hwf Htr Hni) as Ht.
  rewrite (body_under_lock tr _ u f r Hm Hwf Htr') in Ht. injection Ht as ->.
  assert (Hg : good ((p ++ Return t true :: q) ++ [Body t f])).
  { apply (good_at tr _ r Hm Hwf). rewrite <- app_assoc. exact Htr'. }
  pose proof (phase_before_body _ t f (proj2 Hg t)) as Hu.
  rewrite (held_until_release p t q (good_prefix _ _ Hg) Hni) in Hu. discriminate Hu.
Qed.

(** the hypotheses are contradictory, by [no_body_while_handle_held] *)
Theorem pinned_while_handle_held : forall tr p t q u f r,
  mutex_ok None tr = true -> (forall v, thread_wf v (thread_events v tr) = true) ->
  tr = p ++ Return t true :: q ++ Body u f :: r -> ~ In (HandleRelease t) q -> u = t.
Proof.
  intros tr p t q u f r Hm Hwf Htr Hni.
  exfalso. exact (no_body_while_handle_held tr p t q u f r Hm Hwf Htr Hni).
Qed.
