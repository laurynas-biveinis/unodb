(** C03e: the sequential ART model (Art/ArtModel.v) and the concurrent heap
    model (Olc/ReadModel.v, Olc/WriteModel.v) describe the same trees: the
    representation relation, its frame / splitting lemmas, and the lifting of
    a local change below a slot to the whole tree. *)
From Coq Require Import List ZArith Lia Permutation.
From Unodb Require Import Art.ArtModel Art.ArtLemmas.
From Unodb Require Import Lock.LockModel Olc.ReadModel Olc.WriteModel Olc.WriteShapes Olc.WriteSlots.
Import ListNotations.
Local Open Scope Z_scope.
Local Open Scope nat_scope.

(** [rep h t n ids]: in heap h, node n is the root of (the class-forgetting
    image of) subtree t; ids lists the heap ids used, one per tree position. *)
Inductive rep (h : heap) : node -> nid -> list nid -> Prop :=
| rep_leaf : forall id k v n c,
    h n = Some c -> w_is_free (word c) = true -> cont c = CLeaf k v ->
    rep h (Leaf id k v) n [n]
| rep_inode : forall c p ch n cl cs ids,
    h n = Some cl -> w_is_free (word cl) = true -> cont cl = CInode p cs ->
    rep_list h ch cs ids ->
    rep h (Inode c p ch) n (n :: ids)
with rep_list (h : heap) : list (Z * node) -> list (Z * nid) -> list nid -> Prop :=
| rl_nil : rep_list h [] [] []
| rl_cons : forall b t m i1 ch cs i2,
    rep h t m i1 -> rep_list h ch cs i2 ->
    rep_list h ((b, t) :: ch) ((b, m) :: cs) (i1 ++ i2).

Scheme rep_mind := Induction for rep Sort Prop
  with rep_list_mind := Induction for rep_list Sort Prop.
Combined Scheme rep_mutind from rep_mind, rep_list_mind.

(** the bound on the allocated ids: so that fresh ids exist *)
Definition represents (g : gstate) (d : db) : Prop :=
  (exists bound, forall m, bound <= m -> hp g m = None) /\
  match ArtModel.root d with
  | None => ReadModel.root g = None
  | Some t => exists n ids, ReadModel.root g = Some n /\ rep (hp g) t n ids /\ NoDup ids
  end.

Lemma rep_ext_mut : forall h,
  (forall t n ids, rep h t n ids -> forall h', (forall m, In m ids -> h' m = h m) -> rep h' t n ids) /\
  (forall ch cs ids, rep_list h ch cs ids -> forall h', (forall m, In m ids -> h' m = h m) -> rep_list h' ch cs ids).
Proof.
  intros h. apply rep_mutind.
  - intros id k v n c Hc Hf Hk h' E. eapply rep_leaf; [rewrite E; [exact Hc | left; reflexivity] | exact Hf | exact Hk].
  - intros c p ch n cl cs ids Hc Hf Hk Hl IH h' E. eapply rep_inode; [rewrite E; [exact Hc | left; reflexivity] | exact Hf | exact Hk |].
    apply IH. intros m Hm. apply E. right. exact Hm.
  - intros h' _. constructor.
  - intros b t m i1 ch cs i2 Hr IH1 Hl IH2 h' E. constructor.
    + apply IH1. intros x Hx. apply E. apply in_or_app. left. exact Hx.
    + apply IH2. intros x Hx. apply E. apply in_or_app. right. exact Hx.
Qed.

Lemma rep_ext : forall h h' t n ids, rep h t n ids -> (forall m, In m ids -> h' m = h m) -> rep h' t n ids.
Proof. intros h h' t n ids Hr E. exact (proj1 (rep_ext_mut h) t n ids Hr h' E). Qed.

Lemma rep_list_ext : forall h h' ch cs ids, rep_list h ch cs ids -> (forall m, In m ids -> h' m = h m) -> rep_list h' ch cs ids.
Proof. intros h h' ch cs ids Hr E. exact (proj2 (rep_ext_mut h) ch cs ids Hr h' E). Qed.

Lemma rep_alloc_mut : forall h,
  (forall t n ids, rep h t n ids -> forall m, In m ids -> h m <> None) /\
  (forall ch cs ids, rep_list h ch cs ids -> forall m, In m ids -> h m <> None).
Proof.
  intros h. apply rep_mutind.
  - intros id k v n c Hc _ _ m [<- | []]. congruence.
  - intros c p ch n cl cs ids Hc _ _ _ IH m [<- | Hm]; [congruence | apply IH; exact Hm].
  - intros m [].
  - intros b t m i1 ch cs i2 _ IH1 _ IH2 x Hx. apply in_app_or in Hx. destruct Hx; [apply IH1 | apply IH2]; assumption.
Qed.

Lemma rep_alloc : forall h t n ids m, rep h t n ids -> In m ids -> h m <> None.
Proof. intros h t n ids m Hr. exact (proj1 (rep_alloc_mut h) t n ids Hr m). Qed.

Lemma rep_list_alloc : forall h ch cs ids m, rep_list h ch cs ids -> In m ids -> h m <> None.
Proof. intros h ch cs ids m Hr. exact (proj2 (rep_alloc_mut h) ch cs ids Hr m). Qed.

Lemma rep_root_in : forall h t n ids, rep h t n ids -> In n ids.
Proof. intros h t n ids Hr. destruct Hr; left; reflexivity. Qed.

Lemma rep_root_cell : forall h t n ids, rep h t n ids -> exists c, h n = Some c /\ w_is_free (word c) = true /\
  match t with
  | Leaf _ k v => cont c = CLeaf k v /\ ids = [n]
  | Inode _ p ch => exists cs ids0, cont c = CInode p cs /\ rep_list h ch cs ids0 /\ ids = n :: ids0
  end.
Proof.
  intros h t n ids Hr. destruct Hr as [id k v n c Hc Hf Hk | c p ch n cl cs ids Hc Hf Hk Hl].
  - exists c. auto.
  - exists cl. split; [exact Hc | split; [exact Hf|]]. exists cs, ids. auto.
Qed.

Lemma rep_list_keys : forall h ch cs ids, rep_list h ch cs ids -> map fst cs = map fst ch.
Proof. intros h ch cs ids Hr. induction Hr as [|b t m i1 ch cs i2 _ _ IH]; [reflexivity | cbn; f_equal; exact IH]. Qed.

Lemma rep_list_length : forall h ch cs ids, rep_list h ch cs ids -> length cs = length ch.
Proof. intros h ch cs ids Hr. apply rep_list_keys in Hr. rewrite <- (map_length fst cs), Hr. apply map_length. Qed.

Lemma rep_list_app : forall h l1 cs1 i1 l2 cs2 i2, rep_list h l1 cs1 i1 -> rep_list h l2 cs2 i2 ->
  rep_list h (l1 ++ l2) (cs1 ++ cs2) (i1 ++ i2).
Proof.
  intros h l1 cs1 i1 l2 cs2 i2 H1 H2. induction H1 as [|b t m j1 ch cs j2 Hr _ IH]; [exact H2|].
  cbn [app]. rewrite <- app_assoc. constructor; assumption.
Qed.

Lemma rep_list_mid : forall h l1 b t l2 cs ids, rep_list h (l1 ++ (b, t) :: l2) cs ids ->
  exists cs1 m cs2 i1 im i2, cs = cs1 ++ (b, m) :: cs2 /\ ids = i1 ++ im ++ i2 /\
    rep_list h l1 cs1 i1 /\ rep h t m im /\ rep_list h l2 cs2 i2.
Proof.
  intros h l1 b t l2. induction l1 as [|[b0 t0] l1 IH]; intros cs ids Hr;
    inversion Hr as [|b' t' m j1 ch' cs' j2 Hrt Hrl]; subst.
  - exists [], m, cs', [], j1, j2. repeat split; [constructor | assumption | assumption].
  - destruct (IH _ _ Hrl) as (cs1 & m1 & cs2 & i1 & im & i2 & -> & -> & H1 & Hm & H2).
    exists ((b0, m) :: cs1), m1, cs2, (j1 ++ i1), im, i2. rewrite app_assoc.
    repeat split; [constructor | | ]; assumption.
Qed.

Lemma rep_list_single : forall h b t cs ids, rep_list h [(b, t)] cs ids -> exists m, cs = [(b, m)] /\ rep h t m ids.
Proof.
  intros h b t cs ids Hr. inversion Hr as [|b' t' m j1 ch' cs' j2 Hrt Hrl]; subst. inversion Hrl; subst.
  rewrite app_nil_r. exists m. split; [reflexivity | exact Hrt].
Qed.

Lemma find_child_None_iff : forall b cs, find_child b cs = None <-> ~ In b (map fst cs).
Proof.
  intros b cs. induction cs as [|[b' c] cs IH]; cbn; [tauto|].
  destruct (Z.eqb_spec b b') as [->|Hne]; [split; [discriminate | intros H; exfalso; apply H; left; reflexivity]|].
  rewrite IH. split; [intros H [E|HI]; [congruence | tauto] | tauto].
Qed.

Lemma find_child_app_notin : forall b cs1 cs2, ~ In b (map fst cs1) -> find_child b (cs1 ++ cs2) = find_child b cs2.
Proof.
  intros b cs1 cs2. induction cs1 as [|[x c] cs1 IH]; cbn; intros Hn; [reflexivity|].
  destruct (Z.eqb_spec b x) as [->|Hne]; [exfalso; apply Hn; left; reflexivity | apply IH; tauto].
Qed.

Lemma find_child_mid : forall b cs1 m cs2, ~ In b (map fst cs1) -> find_child b (cs1 ++ (b, m) :: cs2) = Some m.
Proof. intros b cs1 m cs2 Hn. rewrite (find_child_app_notin _ _ _ Hn). cbn. rewrite Z.eqb_refl. reflexivity. Qed.

Lemma find_child_skip : forall b' b cs1 m cs2, b' <> b -> find_child b' (cs1 ++ (b, m) :: cs2) = find_child b' (cs1 ++ cs2).
Proof.
  intros b' b cs1 m cs2 Hne. induction cs1 as [|[x c] cs1 IH]; cbn.
  - destruct (Z.eqb_spec b' b); [contradiction | reflexivity].
  - destruct (b' =? x)%Z; [reflexivity | exact IH].
Qed.

Lemma find_child_none_heap : forall h ch cs ids b, rep_list h ch cs ids ->
  ArtModel.find_child ch b 0 = None -> find_child b cs = None.
Proof.
  intros h ch cs ids b Hl Hn. apply find_child_None_iff. rewrite (rep_list_keys _ _ _ _ Hl).
  eapply find_child_none. exact Hn.
Qed.

Lemma NoDup_app_inv : forall (A : Type) (l1 l2 : list A), NoDup (l1 ++ l2) ->
  NoDup l1 /\ NoDup l2 /\ forall x, In x l1 -> ~ In x l2.
Proof.
  intros A l1 l2. induction l1 as [|a l1 IH]; cbn; intros H.
  - repeat split; [constructor | exact H | intros x []].
  - inversion H as [|a' l' Hn Hd]; subst. destruct (IH Hd) as (H1 & H2 & H3). rewrite in_app_iff in Hn.
    repeat split; [constructor; tauto | exact H2 |]. intros x [<- | Hx]; [tauto | apply H3; exact Hx].
Qed.

Lemma NoDup_mid_iff : forall (A : Type) (l1 l l2 : list A), NoDup (l1 ++ l ++ l2) <->
  NoDup l /\ NoDup (l1 ++ l2) /\ forall x, In x l -> ~ In x (l1 ++ l2).
Proof.
  intros A l1 l l2. rewrite (Permutation_app_swap_app l1 l l2).
  split; [apply NoDup_app_inv | intros (H1 & H2 & H3); apply NoDup_app_intro; assumption].
Qed.

Lemma incl_drop_mid : forall (A : Type) (l1 l l2 : list A), incl (l1 ++ l2) (l1 ++ l ++ l2).
Proof. intros A l1 l l2. exact (incl_app_app (incl_refl l1) (incl_appr l (incl_refl l2))). Qed.

Lemma incl_mid : forall (A : Type) (l1 l l' l2 fr : list A), incl l' (fr ++ l) ->
  incl (l1 ++ l' ++ l2) (fr ++ l1 ++ l ++ l2).
Proof. intros A l1 l l' l2 fr H x. specialize (H x). rewrite !in_app_iff in *. tauto. Qed.

Lemma nodup_mid_notin : forall (A : Type) (l1 : list (Z * A)) b x l2, NoDup (map fst (l1 ++ (b, x) :: l2)) ->
  ~ In b (map fst l1) /\ ~ In b (map fst l2).
Proof.
  intros A l1 b x l2 H. rewrite map_app in H. apply (NoDup_mid_iff _ _ [b]) in H.
  destruct H as (_ & _ & H). specialize (H b (or_introl eq_refl)). rewrite in_app_iff in H. tauto.
Qed.

Lemma rep_child : forall h c p l1 b t l2 n ids,
  rep h (Inode c p (l1 ++ (b, t) :: l2)) n ids -> NoDup (map fst (l1 ++ (b, t) :: l2)) ->
  exists cl cs1 m cs2 i1 im i2, ids = n :: i1 ++ im ++ i2 /\
    h n = Some cl /\ w_is_free (word cl) = true /\ cont cl = CInode p (cs1 ++ (b, m) :: cs2) /\
    rep_list h l1 cs1 i1 /\ rep h t m im /\ rep_list h l2 cs2 i2 /\
    ~ In b (map fst cs1) /\ ~ In b (map fst cs2).
Proof.
  intros h c p l1 b t l2 n ids Hr Hnd.
  destruct (rep_root_cell _ _ _ _ Hr) as (cl & Hc & Hfree & cs & ids0 & Hcont & Hl & ->).
  rewrite <- (rep_list_keys _ _ _ _ Hl) in Hnd.
  destruct (rep_list_mid _ _ _ _ _ _ _ Hl) as (cs1 & m & cs2 & i1 & im & i2 & -> & -> & R1 & Rm & R2).
  apply nodup_mid_notin in Hnd. exists cl, cs1, m, cs2, i1, im, i2. tauto.
Qed.

Lemma AWF_keys_nodup : forall L c p ch pi, ArtInv.WF L (Inode c p ch) pi -> NoDup (map fst ch).
Proof. intros L c p ch pi HW. apply ssorted_nodup. apply WF_inode in HW. tauto. Qed.

Lemma ext_path_facts : forall pi p b k, ext (pi ++ p ++ [b]) k ->
  ext pi k /\ prefix_at p (length pi) k /\ nth_error k (length pi + length p) = Some b.
Proof.
  intros pi p b k H. rewrite app_assoc in H. apply ext_snoc_inv in H. destruct H as [H1 H2].
  assert (Hpi : ext pi k) by (eapply ext_app_l; exact H1).
  split; [exact Hpi | split].
  - apply (ext_skipn pi p k Hpi). exact H1.
  - rewrite app_length in H2. exact H2.
Qed.

Definition upds (h : heap) (l : list (nid * cell)) : heap :=
  fold_left (fun h' nc => upd h' (fst nc) (snd nc)) l h.

Lemma upds_frame : forall l h m, ~ In m (map fst l) -> upds h l m = h m.
Proof.
  induction l as [|[n c] l IH]; intros h m Hm; [reflexivity|]. cbn in Hm. cbn [upds fold_left fst snd].
  fold (upds (upd h n c) l). rewrite IH by tauto. apply upd_neq. intros ->. tauto.
Qed.

Lemma upds_at : forall l h n c, NoDup (map fst l) -> In (n, c) l -> upds h l n = Some c.
Proof.
  induction l as [|[n0 c0] l IH]; intros h n c Hnd HI; [contradiction|]. cbn in Hnd. inversion Hnd; subst.
  cbn [upds fold_left fst snd]. fold (upds (upd h n0 c0) l). destruct HI as [E | HI].
  - injection E as -> ->. rewrite upds_frame by assumption. apply upd_eq.
  - apply IH; assumption.
Qed.

Lemma rep_upds : forall h l t n ids, rep h t n ids -> (forall m, In m ids -> ~ In m (map fst l)) ->
  rep (upds h l) t n ids.
Proof. intros h l t n ids Hr Hd. eapply rep_ext; [exact Hr|]. intros m Hm. apply upds_frame. apply Hd. exact Hm. Qed.

Lemma rep_list_upds : forall h l ch cs ids, rep_list h ch cs ids -> (forall m, In m ids -> ~ In m (map fst l)) ->
  rep_list (upds h l) ch cs ids.
Proof. intros h l ch cs ids Hr Hd. eapply rep_list_ext; [exact Hr|]. intros m Hm. apply upds_frame. apply Hd. exact Hm. Qed.

Lemma rep_leaf_mk : forall h id k v n w, h n = Some (mk w (CLeaf k v)) -> w_is_free w = true -> rep h (Leaf id k v) n [n].
Proof. intros h id k v n w Hc Hf. eapply rep_leaf; [exact Hc | exact Hf | reflexivity]. Qed.

Lemma rep_inode_mk : forall h c p ch n w cs ids, h n = Some (mk w (CInode p cs)) -> w_is_free w = true ->
  rep_list h ch cs ids -> rep h (Inode c p ch) n (n :: ids).
Proof. intros h c p ch n w cs ids Hc Hf Hl. eapply rep_inode; [exact Hc | exact Hf | reflexivity | exact Hl]. Qed.

Fixpoint set_child (b : Z) (X : nid) (cs : list (Z * nid)) : list (Z * nid) :=
  match cs with
  | [] => []
  | (b', c) :: cs' => if (b =? b')%Z then (b', X) :: cs' else (b', c) :: set_child b X cs'
  end.

Lemma set_child_slot_set : forall b X cs m, find_child b cs = Some m -> slot_set cs b (Some X) (set_child b X cs).
Proof.
  intros b X cs m. induction cs as [|[b' c] cs IH]; cbn; [discriminate|].
  destruct (Z.eqb_spec b b') as [->|Hne]; intros Hf x; cbn.
  - destruct (Z.eqb_spec x b'); reflexivity.
  - rewrite (IH Hf x). destruct (Z.eqb_spec x b') as [->|Hne2]; [|reflexivity].
    destruct (Z.eqb_spec b' b); [congruence | reflexivity].
Qed.

Lemma set_child_mid : forall b X cs1 m cs2, ~ In b (map fst cs1) -> set_child b X (cs1 ++ (b, m) :: cs2) = cs1 ++ (b, X) :: cs2.
Proof.
  intros b X cs1 m cs2. induction cs1 as [|[b' c] cs1 IH]; cbn; intros Hn.
  - rewrite Z.eqb_refl. reflexivity.
  - destruct (Z.eqb_spec b b') as [->|Hne]; [exfalso; apply Hn; left; reflexivity|]. f_equal. apply IH. tauto.
Qed.

Definition redirect (g : gstate) (s : slot) (h : heap) (X : nid) : gstate :=
  match s with
  | SRoot => set_root g h (Some X)
  | SChild P bP =>
      match hp g P with
      | Some cP =>
          match cont cP with
          | CInode pP csP => set_hp g (upd h P (mk (bump (word cP)) (CInode pP (set_child bP X csP))))
          | CLeaf _ _ => g
          end
      | None => g
      end
  end.

Lemma redirect_ok : forall g s n Q h X, slot_holds g s n Q -> slot_redirect g s h X (redirect g s h X).
Proof.
  intros g [|P bP] n Q h X Hs; cbn in *; [reflexivity|].
  destruct Hs as (pthP & cP & pP & csP & Hr & Hc & Hk & Hf & _).
  rewrite Hc, Hk. exists cP, pP, csP, (set_child bP X csP). repeat split; try assumption.
  eapply set_child_slot_set. exact Hf.
Qed.

Lemma slot_holds_child : forall g s P Q cP pP csP b m, slot_holds g s P Q ->
  hp g P = Some cP -> cont cP = CInode pP csP -> find_child b csP = Some m ->
  slot_holds g (SChild P b) m (Q ++ pP ++ [b]).
Proof.
  intros g s P Q cP pP csP b m Hs Hc Hk Hf. cbn. exists Q, cP, pP, csP.
  repeat split; try assumption. eapply sh_reach. exact Hs.
Qed.

Lemma slot_holds_ext : forall g k s n pi, slot_holds g s n pi -> ext pi k ->
  slot_holds g s n (firstn (length pi) k) /\ length pi <= length k.
Proof. intros g k s n pi Hs Hext. split; [rewrite Hext; exact Hs | apply ext_length; exact Hext]. Qed.

Lemma at_slot_inode_of_ext : forall g k s n pi cl p cs b, slot_holds g s n pi -> ext (pi ++ p ++ [b]) k ->
  hp g n = Some cl -> cont cl = CInode p cs -> at_slot_inode g k s n (length pi) cl p cs b.
Proof.
  intros g k s n pi cl p cs b Hs Hext Hc Hk. destruct (ext_path_facts _ _ _ _ Hext) as (Hpi & Hpre & Hnth).
  destruct (slot_holds_ext g k s n pi Hs Hpi). repeat split; assumption.
Qed.

(** the outcome of a local change below slot s (holding n, subtree ids): the
    new subtree t' is represented at n' in a heap h' that differs from the old
    one only inside the subtree and at the fresh ids; in place (same id) or by
    redirecting the slot *)
Definition local_res (g : gstate) (s : slot) (n : nid) (ids fresh : list nid) (t' : node) (g' : gstate) : Prop :=
  exists h' n' ids',
    rep h' t' n' ids' /\ NoDup ids' /\ incl ids' (fresh ++ ids) /\
    (forall m, ~ In m (fresh ++ ids) -> h' m = hp g m) /\
    ((n' = n /\ g' = set_hp g h') \/ g' = redirect g s h' n').

Lemma new_ids_ok : forall (h : heap) fresh ids fr old ids', Permutation ids' (fr ++ old) ->
  NoDup fr -> incl fr fresh -> NoDup old -> incl old ids ->
  (forall f, In f fresh -> h f = None) -> (forall m, In m ids -> h m <> None) ->
  NoDup ids' /\ incl ids' (fresh ++ ids).
Proof.
  intros h fresh ids fr old ids' P Nf If No Io Hf Ha. split.
  - apply (Permutation_NoDup (Permutation_sym P)). apply NoDup_app_intro; [exact Nf | exact No |].
    intros x Hx Hy. exact (Ha x (Io x Hy) (Hf x (If x Hx))).
  - intros x Hx. apply (Permutation_in _ P) in Hx. apply in_app_or in Hx. apply in_or_app.
    destruct Hx as [Hx | Hx]; [left; apply If | right; apply Io]; exact Hx.
Qed.

Lemma local_res_upds : forall g s n ids fresh t' l n' ids' fr old g', let h' := upds (hp g) l in
  (n' = n /\ g' = set_hp g h') \/ g' = redirect g s h' n' ->
  rep h' t' n' ids' -> Permutation ids' (fr ++ old) -> NoDup fr -> incl fr fresh -> NoDup old -> incl old ids ->
  (forall f, In f fresh -> hp g f = None) -> (forall m, In m ids -> hp g m <> None) ->
  incl (map fst l) (fresh ++ ids) ->
  local_res g s n ids fresh t' g'.
Proof.
  intros g s n ids fresh t' l n' ids' fr old g' h' Hg' Hr P Nf If No Io Hf Ha Hl.
  destruct (new_ids_ok (hp g) fresh ids fr old ids' P Nf If No Io Hf Ha) as [Hnd Hincl].
  exists h', n', ids'. repeat split; try assumption.
  intros m Hm. apply upds_frame. intros HI. apply Hm. apply Hl. exact HI.
Qed.

(** a local result below the child slot b of n is a local result at the slot of n *)
Lemma local_descend : forall g s n pi c p l1 b t l2 ids fresh,
  slot_holds g s n pi -> rep (hp g) (Inode c p (l1 ++ (b, t) :: l2)) n ids -> NoDup ids ->
  NoDup (map fst (l1 ++ (b, t) :: l2)) -> (forall f, In f fresh -> hp g f = None) ->
  exists m im, slot_holds g (SChild n b) m (pi ++ p ++ [b]) /\ rep (hp g) t m im /\ NoDup im /\
    forall t' g', local_res g (SChild n b) m im fresh t' g' ->
      local_res g s n ids fresh (Inode c p (l1 ++ (b, t') :: l2)) g'.
Proof.
  intros g s n pi c p l1 b t l2 ids fresh Hs Hr Hnd Hkeys Hfr.
  destruct (rep_child _ _ _ _ _ _ _ _ _ Hr Hkeys) as (cl & cs1 & m & cs2 & i1 & im & i2 & E & Hc & Hfree & Hcont & R1 & Rm & R2 & Hb1 & _).
  pose proof (fun x => rep_alloc _ _ _ _ x Hr) as Halloc. subst ids.
  apply (NoDup_mid_iff _ (n :: i1) im i2) in Hnd. destruct Hnd as (Nm & N12 & D).
  exists m, im. split; [|split; [exact Rm | split; [exact Nm|]]].
  { eapply slot_holds_child; [exact Hs | exact Hc | exact Hcont | apply find_child_mid; exact Hb1]. }
  intros t' g' (h' & n' & ids' & Hr' & Hnd' & Hincl & Hframe & Hg').
  (* the ids of n other than those below m, and what the change below m may touch, within the ids of n *)
  pose proof (incl_drop_mid _ (n :: i1) im i2) as Irest.
  assert (Iim : incl (fresh ++ im) (fresh ++ n :: i1 ++ im ++ i2))
    by exact (incl_app_app (incl_refl fresh) (incl_appr (n :: i1) (incl_appl i2 (incl_refl im)))).
  assert (Hout : forall x, In x ((n :: i1) ++ i2) -> ~ In x (fresh ++ im)).
  { intros x Hx HI. apply in_app_or in HI. destruct HI as [HI | HI]; [|exact (D x HI Hx)].
    exact (Halloc x (Irest x Hx) (Hfr x HI)). }
  assert (Hnd'' : NoDup (n :: i1 ++ ids' ++ i2)).
  { apply (NoDup_mid_iff _ (n :: i1) ids' i2). split; [exact Hnd' | split; [exact N12|]].
    intros x Hx HI. exact (Hout x HI (Hincl x Hx)). }
  (* any heap that agrees with h' off n and has the new cell at n *)
  assert (Hreb : forall h'' cl'', h'' n = Some cl'' -> w_is_free (word cl'') = true ->
            cont cl'' = CInode p (cs1 ++ (b, n') :: cs2) -> (forall x, x <> n -> h'' x = h' x) ->
            local_res g s n (n :: i1 ++ im ++ i2) fresh (Inode c p (l1 ++ (b, t') :: l2)) (set_hp g h'')).
  { intros h'' cl'' Hc'' Hf'' Hk'' Hoff.
    assert (Hold : forall x, In x (i1 ++ i2) -> h'' x = hp g x).
    { intros x Hx. assert (HI : In x ((n :: i1) ++ i2)) by (right; exact Hx).
      rewrite Hoff; [apply Hframe; apply Hout; exact HI|]. intros ->. inversion N12. contradiction. }
    exists h'', n, (n :: i1 ++ ids' ++ i2). split; [|split; [exact Hnd'' | split; [exact (incl_mid _ (n :: i1) _ _ i2 _ Hincl) | split]]].
    - eapply rep_inode; [exact Hc'' | exact Hf'' | exact Hk'' |]. apply rep_list_app; [|constructor].
      + eapply rep_list_ext; [exact R1|]. intros x Hx. apply Hold. apply in_or_app. left. exact Hx.
      + eapply rep_ext; [exact Hr'|]. intros x Hx. apply Hoff. intros ->.
        apply (Hout n (or_introl eq_refl)). apply Hincl. exact Hx.
      + eapply rep_list_ext; [exact R2|]. intros x Hx. apply Hold. apply in_or_app. right. exact Hx.
    - intros x Hx. rewrite Hoff by (intros ->; apply Hx; apply in_or_app; right; left; reflexivity).
      apply Hframe. intros HI. exact (Hx (Iim x HI)).
    - left. split; reflexivity. }
  destruct Hg' as [[-> ->] | ->].
  - apply (Hreb h' cl); try assumption; [|reflexivity].
    rewrite Hframe; [exact Hc | apply Hout; left; reflexivity].
  - unfold redirect. rewrite Hc, Hcont, (set_child_mid _ _ _ _ _ Hb1).
    eapply Hreb; [apply upd_eq | apply bump_free; exact Hfree | reflexivity | intros x Hx; apply upd_neq; exact Hx].
Qed.

Lemma local_res_root : forall g t n ids fresh t' g' bound,
  ReadModel.root g = Some n -> rep (hp g) t n ids -> (forall m, bound <= m -> hp g m = None) ->
  local_res g SRoot n ids fresh t' g' ->
  (exists bound', forall m, bound' <= m -> hp g' m = None) /\
  exists n' ids', ReadModel.root g' = Some n' /\ rep (hp g') t' n' ids' /\ NoDup ids'.
Proof.
  intros g t n ids fresh t' g' bound Hroot Hrep Hb (h' & n' & ids' & Hr & Hnd & Hincl & Hframe & Hg').
  assert (Hb' : forall m, Nat.max bound (S (list_max fresh)) <= m -> h' m = None).
  { intros m Hm. rewrite Hframe; [apply Hb; lia|]. intros HI. apply in_app_or in HI. destruct HI as [HI | HI].
    - pose proof (proj1 (list_max_le fresh (list_max fresh)) (le_n _)) as Hmax. rewrite Forall_forall in Hmax.
      specialize (Hmax m HI). lia.
    - apply (rep_alloc _ _ _ _ m Hrep HI). apply Hb. lia. }
  destruct Hg' as [[-> ->] | ->]; cbn.
  - split; [eexists; exact Hb' | exists n, ids'; auto].
  - split; [eexists; exact Hb' | exists n', ids'; auto].
Qed.
