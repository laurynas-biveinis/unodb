(** C03e, insert side: every structural case of ArtModel.insert_go is one
    insert commit shape of Olc/WriteModel.v on a representing heap. *)
From Coq Require Import List ZArith Lia Permutation.
From Unodb Require Import Base.Lex Art.ArtModel Art.ArtSpec Art.ArtInv Art.ArtLemmas Art.ArtProofs.
From Unodb Require Import Lock.LockModel Olc.ReadModel Olc.WriteModel Olc.WriteShapes Olc.WriteSlots Olc.ArtRefine.
Import ListNotations.
Local Open Scope Z_scope.
Local Open Scope nat_scope.

Local Notation AWF := ArtInv.WF.

Lemma free_0 : w_is_free 0%Z = true.
Proof. reflexivity. Qed.

Lemma insert_at_slot_set : forall pos b (X : nid) cs, find_child b cs = None ->
  slot_set cs b (Some X) (insert_at pos (b, X) cs).
Proof.
  induction pos as [|pos IH]; intros b X cs Hn x.
  - cbn. destruct (x =? b)%Z; reflexivity.
  - destruct cs as [|[b' c] cs]; cbn.
    + destruct (x =? b)%Z; reflexivity.
    + cbn in Hn. destruct (Z.eqb_spec b b') as [->|Hne]; [discriminate|].
      rewrite (IH b X cs Hn x). destruct (Z.eqb_spec x b') as [->|Hne2]; [|reflexivity].
      destruct (Z.eqb_spec b' b); [congruence | reflexivity].
Qed.

Lemma rep_list_insert : forall h pos b t m im ch cs ids, rep_list h ch cs ids -> rep h t m im ->
  exists ids', rep_list h (insert_at pos (b, t) ch) (insert_at pos (b, m) cs) ids' /\ Permutation ids' (im ++ ids).
Proof.
  intros h pos b t m im. induction pos as [|pos IH]; intros ch cs ids Hl Hr.
  - exists (im ++ ids). split; [constructor; assumption | reflexivity].
  - inversion Hl as [|b' t' m' j1 ch' cs' j2 Hrt Hrl]; subst.
    + exists (im ++ []). split; [cbn; constructor; [exact Hr | constructor] | reflexivity].
    + destruct (IH _ _ _ Hrl Hr) as (ids' & H1 & H2). exists (j1 ++ ids'). split; [cbn; constructor; assumption|].
      rewrite H2. rewrite !app_assoc. apply Permutation_app_tail. apply Permutation_app_comm.
Qed.

(** heap side of [two_children] *)
Definition two_cs (b1 : Z) (n1 : nid) (b2 : Z) (n2 : nid) : list (Z * nid) :=
  if (b1 <? b2)%Z then [(b1, n1); (b2, n2)] else [(b2, n2); (b1, n1)].

Lemma two_cs_find : forall b1 n1 b2 n2, b1 <> b2 -> forall b0,
  find_child b0 (two_cs b1 n1 b2 n2) = if (b0 =? b2)%Z then Some n2 else if (b0 =? b1)%Z then Some n1 else None.
Proof.
  intros b1 n1 b2 n2 Hne b0. unfold two_cs. destruct (b1 <? b2)%Z; cbn.
  - destruct (Z.eqb_spec b0 b1) as [E1|H1]; destruct (Z.eqb_spec b0 b2) as [E|H2]; try reflexivity. congruence.
  - destruct (Z.eqb_spec b0 b2) as [E2|H2]; destruct (Z.eqb_spec b0 b1) as [E|H1]; reflexivity.
Qed.

Lemma two_children_WF_inv : forall L p pi b1 c1 b2 c2, WFch L pi p (two_children b1 c1 b2 c2) ->
  AWF L c1 (pi ++ p ++ [b1]) /\ AWF L c2 (pi ++ p ++ [b2]).
Proof.
  intros L p pi b1 c1 b2 c2 H. unfold WFch, two_children in H. destruct (b1 <? b2)%Z;
  inversion H as [|x l Hx Hl]; subst; inversion Hl as [|y l' Hy _]; subst; cbn [fst snd] in *; tauto.
Qed.

Lemma two_children_sorted_ne : forall b1 c1 b2 c2, keys_sorted (two_children b1 c1 b2 c2) -> b1 <> b2.
Proof.
  intros b1 c1 b2 c2 H. unfold keys_sorted, two_children in H. destruct (b1 <? b2)%Z; cbn in H;
  inversion H as [|x l _ Hf]; subst; inversion Hf; subst; lia.
Qed.

Lemma rep_two : forall h b1 t1 n1 i1 b2 t2 n2 i2, rep h t1 n1 i1 -> rep h t2 n2 i2 ->
  exists ids, rep_list h (two_children b1 t1 b2 t2) (two_cs b1 n1 b2 n2) ids /\ Permutation ids (i1 ++ i2).
Proof.
  intros h b1 t1 n1 i1 b2 t2 n2 i2 H1 H2. unfold two_children, two_cs. destruct (b1 <? b2)%Z.
  - exists (i1 ++ i2 ++ []). split; [repeat constructor; assumption | rewrite app_nil_r; reflexivity].
  - exists (i2 ++ i1 ++ []). split; [repeat constructor; assumption | rewrite app_nil_r; apply Permutation_app_comm].
Qed.

(** which commit shape each structural event of the sequential insert is *)
Definition ins_shape (e : ev) (k v : list Z) (g g' : gstate) : Prop :=
  match e with
  | ERootLeaf => root_insert k v g g'
  | ELeafSplit => leaf_split k v g g'
  | EPrefixSplit => prefix_split k v g g'
  | EAdd _ => add_leaf k v g g'
  | EGrow _ => replace_ins k v g g'
  | _ => False
  end.

Lemma ins_shape_commit : forall e k v g g', ins_shape e k v g g' -> ins_commit k v g g'.
Proof.
  intros e k v g g' H. destruct e; cbn in H; try contradiction.
  - apply ic_root_insert; exact H.
  - apply ic_leaf_split; exact H.
  - apply ic_prefix_split; exact H.
  - apply ic_add_leaf; exact H.
  - apply ic_replace_ins; exact H.
Qed.

Lemma split_WF_facts : forall L pre pi b1 t1 b2 id k v,
  AWF L (Inode C4 pre (two_children b1 t1 b2 (Leaf id k v))) pi ->
  b1 <> b2 /\ AWF L t1 (pi ++ pre ++ [b1]) /\ prefix_at pre (length pi) k /\ nth_error k (length pi + length pre) = Some b2.
Proof.
  intros L pre pi b1 t1 b2 id k v HW. apply WF_inode in HW. destruct HW as (_ & _ & _ & HS & _ & Hch).
  apply two_children_sorted_ne in HS. apply two_children_WF_inv in Hch. destruct Hch as [W1 W2].
  apply WF_leaf in W2. destruct W2 as [_ E2]. apply ext_path_facts in E2. tauto.
Qed.

Lemma byte_at_Ok : forall l i b, byte_at l i = Ok b -> nth_error l i = Some b.
Proof. intros l i b H. unfold byte_at in H. destruct (nth_error l i); [injection H as ->; reflexivity | discriminate]. Qed.

Lemma insert_go_leaf : forall f lid lk lv k v id d t' e,
  insert_go (S f) (Leaf lid lk lv) k v id d = Ok (Some (t', e)) ->
  exists pre b1 b2, t' = Inode C4 pre (two_children b1 (Leaf lid lk lv) b2 (Leaf id k v)) /\ e = ELeafSplit.
Proof.
  intros f lid lk lv k v id d t' e H. cbn [insert_go] in H.
  destruct (lex_compare k lk); [discriminate | |];
    (destruct (length k <? d); [discriminate|]; destruct (length lk <? d); [discriminate|];
     destruct (byte_at lk _) as [b1|]; [|discriminate]; destruct (byte_at (skipn d k) _) as [b2|]; [|discriminate];
     injection H as <- <-; eauto).
Qed.

Section Insert.
  Variables (L : nat) (k v : list Z) (id : Z) (g : gstate) (f1 f2 : nid).
  Hypothesis Hk : key_ok L k.
  Hypothesis Hf1 : hp g f1 = None.
  Hypothesis Hf2 : hp g f2 = None.
  Hypothesis Hf12 : f1 <> f2.

  Let fresh := [f1; f2].

  Lemma fresh_unalloc : forall f, In f fresh -> hp g f = None.
  Proof. intros f [<- | [<- | []]]; assumption. Qed.

  Lemma fresh_nodup : NoDup fresh.
  Proof. repeat constructor; cbn; intuition. Qed.

  (** S4 / S6: a fresh N4 at f1 over the old subtree, which stays at n, and
      the fresh leaf at f2; l lists the touched cells *)
  Lemma split_res : forall s n ids l t pre b1 b2, let h := upds (hp g) l in
    NoDup (map fst l) -> incl (map fst l) (fresh ++ ids) ->
    In (f2, mk 0%Z (CLeaf k v)) l -> In (f1, mk 0%Z (CInode pre (two_cs b1 n b2 f2))) l ->
    (forall m, In m ids -> hp g m <> None) -> NoDup ids -> rep h t n ids ->
    local_res g s n ids fresh (Inode C4 pre (two_children b1 t b2 (Leaf id k v))) (redirect g s h f1).
  Proof.
    intros s n ids l t pre b1 b2 h Hl Hkeys H2 H1 Ha Hnd Rn.
    assert (Rk : rep h (Leaf id k v) f2 [f2]) by (eapply rep_leaf_mk; [apply upds_at; eassumption | reflexivity]).
    destruct (rep_two h b1 _ _ _ b2 _ _ _ Rn Rk) as (idsX & RX & PX).
    eapply local_res_upds with (fr := fresh) (old := ids) (ids' := f1 :: idsX);
      [right; reflexivity | | | exact fresh_nodup | apply incl_refl | exact Hnd | apply incl_refl | exact fresh_unalloc
      | exact Ha | exact Hkeys].
    - eapply rep_inode_mk; [apply upds_at; eassumption | reflexivity | exact RX].
    - cbn. constructor. rewrite PX. symmetry. apply Permutation_cons_append.
  Qed.

  Lemma ins_leaf_split_case : forall s n pi lid lk lv ids pre b1 b2,
    slot_holds g s n pi -> rep (hp g) (Leaf lid lk lv) n ids -> ext pi k ->
    AWF L (Inode C4 pre (two_children b1 (Leaf lid lk lv) b2 (Leaf id k v))) pi ->
    exists g', leaf_split k v g g' /\
      local_res g s n ids fresh (Inode C4 pre (two_children b1 (Leaf lid lk lv) b2 (Leaf id k v))) g'.
  Proof.
    intros s n pi lid lk lv ids pre b1 b2 Hs Hr Hext HW.
    destruct (split_WF_facts _ _ _ _ _ _ _ _ _ HW) as (HS & W1 & P2 & N2).
    apply WF_leaf in W1. destruct W1 as [_ E1]. apply ext_path_facts in E1. destruct E1 as (_ & P1 & N1).
    destruct (rep_root_cell _ _ _ _ Hr) as (c & Hc & Hfree & Hcont & ->).
    destruct (slot_holds_ext g k s n pi Hs Hext) as [Hs' Hle].
    set (l := [(f2, mk 0%Z (CLeaf k v)); (f1, mk 0%Z (CInode pre (two_cs b1 n b2 f2)))]).
    exists (redirect g s (upds (hp g) l) f1). split.
    - eapply leaf_split_intro with (L0 := n) (X := f1) (Lk := f2) (px := pre) (bl := b1) (bk := b2)
        (csX := two_cs b1 n b2 f2) (wx := 0%Z) (wl := 0%Z); try eassumption; try reflexivity.
      + apply two_cs_find. exact HS.
      + eapply redirect_ok. exact Hs.
    - apply split_res.
      + repeat constructor; cbn; intuition congruence.
      + intros x [<- | [<- | []]]; cbn; tauto.
      + left. reflexivity.
      + right. left. reflexivity.
      + intros m [<- | []]. congruence.
      + repeat constructor. intros [].
      + apply rep_upds; [exact Hr|]. intros m [<- | []] [E | [E | []]]; cbn in E; congruence.
  Qed.

  Lemma ins_prefix_split_case : forall s n pi c p1 sb p2 ch ids nb,
    slot_holds g s n pi -> rep (hp g) (Inode c (p1 ++ sb :: p2) ch) n ids -> NoDup ids -> ext pi k ->
    AWF L (Inode C4 p1 (two_children sb (Inode c p2 ch) nb (Leaf id k v))) pi ->
    exists g', prefix_split k v g g' /\
      local_res g s n ids fresh (Inode C4 p1 (two_children sb (Inode c p2 ch) nb (Leaf id k v))) g'.
  Proof.
    intros s n pi c p1 sb p2 ch ids nb Hs Hr Hnd Hext HW.
    destruct (split_WF_facts _ _ _ _ _ _ _ _ _ HW) as (HS & _ & P2 & N2).
    destruct (rep_root_cell _ _ _ _ Hr) as (cl & Hc & Hfree & cs & ids0 & Hcont & Hl & ->).
    destruct (slot_holds_ext g k s n pi Hs Hext) as [Hs' Hle].
    set (l := [(f2, mk 0%Z (CLeaf k v)); (f1, mk 0%Z (CInode p1 (two_cs sb n nb f2)));
               (n, mk (bump (word cl)) (CInode p2 cs))]).
    assert (Hkeys : NoDup (map fst l)) by (repeat constructor; cbn; intuition congruence).
    exists (redirect g s (upds (hp g) l) f1). split.
    - eapply prefix_split_intro with (N := n) (bn := sb) (bk := nb) (X := f1) (wx := 0%Z) (csX := two_cs sb n nb f2)
        (Lk := f2) (wl := 0%Z); try eassumption; try reflexivity.
      + intros E. apply HS. symmetry. exact E.
      + apply two_cs_find. exact HS.
      + eapply redirect_ok. exact Hs.
    - apply split_res; try assumption.
      + intros x [<- | [<- | [<- | []]]]; cbn; tauto.
      + left. reflexivity.
      + right. left. reflexivity.
      + intros m. eapply rep_alloc. exact Hr.
      + eapply rep_inode_mk; [apply upds_at; [exact Hkeys | right; right; left; reflexivity] | apply bump_free; exact Hfree |].
        apply rep_list_upds; [exact Hl|]. inversion Hnd as [|x l0 Hnin _]; subst.
        intros m Hm [E | [E | [E | []]]]; cbn in E; subst m; [| | contradiction];
          apply (rep_list_alloc _ _ _ _ _ Hl Hm); assumption.
  Qed.

  Lemma rep_insert_leaf : forall l c p ch cs ids0 n' fl w b pos, let h := upds (hp g) l in
    NoDup (map fst l) -> In (fl, mk 0%Z (CLeaf k v)) l ->
    In (n', mk w (CInode p (insert_at pos (b, fl) cs))) l -> w_is_free w = true ->
    rep_list (hp g) ch cs ids0 -> (forall m, In m ids0 -> ~ In m (map fst l)) ->
    exists ids', rep h (Inode c p (insert_at pos (b, Leaf id k v) ch)) n' ids' /\ Permutation ids' (n' :: fl :: ids0).
  Proof.
    intros l c p ch cs ids0 n' fl w b pos h Hl Hfl Hn' Hw Rl Hd.
    destruct (rep_list_insert h pos b (Leaf id k v) fl [fl] ch cs ids0) as (ids' & RX & PX).
    - apply rep_list_upds; assumption.
    - eapply rep_leaf_mk; [apply upds_at; eassumption | reflexivity].
    - exists (n' :: ids'). split; [|constructor; exact PX].
      eapply rep_inode_mk; [apply upds_at; eassumption | exact Hw | exact RX].
  Qed.

  (** S1 / S5: a leaf for k under a node without a child for the next byte,
      in place or ([copy]) into a fresh copy of the node at f1 *)
  Lemma ins_child_case : forall (copy : bool) s n pi c c2 p ch ids b pos,
    slot_holds g s n pi -> rep (hp g) (Inode c p ch) n ids -> NoDup ids ->
    ext (pi ++ p ++ [b]) k -> ArtModel.find_child ch b 0 = None ->
    exists g', (if copy then replace_ins k v g g' else add_leaf k v g g') /\
      local_res g s n ids fresh (Inode c2 p (insert_at pos (b, Leaf id k v) ch)) g'.
  Proof.
    intros copy s n pi c c2 p ch ids b pos Hs Hr Hnd Hext Hnone.
    destruct (rep_root_cell _ _ _ _ Hr) as (cl & Hc & Hfree & cs & ids0 & Hcont & Hl & ->).
    pose proof (at_slot_inode_of_ext g k s n pi cl p cs b Hs Hext Hc Hcont) as HA.
    pose proof (find_child_none_heap _ _ _ _ _ Hl Hnone) as Hnone'.
    inversion Hnd as [|x l0 Hnin Hnd0]; subst.
    assert (Ha : forall m, In m (n :: ids0) -> hp g m <> None) by (intros m; eapply rep_alloc; exact Hr).
    assert (Hold : forall m, In m ids0 -> m <> f2 /\ m <> f1 /\ m <> n).
    { intros m Hm. pose proof (Ha m (or_intror Hm)). repeat split; congruence. }
    destruct copy.
    - set (l := [(f2, mk 0%Z (CLeaf k v)); (f1, mk 0%Z (CInode p (insert_at pos (b, f2) cs))); (n, mk 1%Z (cont cl))]).
      destruct (rep_insert_leaf l c2 p ch cs ids0 f1 f2 0%Z b pos) as (ids' & R & P); try assumption; try reflexivity.
      + repeat constructor; cbn; intuition congruence.
      + left. reflexivity.
      + right. left. reflexivity.
      + intros m Hm HI. destruct (Hold m Hm) as (A2 & A1 & An). cbn in HI. intuition congruence.
      + exists (redirect g s (upds (hp g) l) f1). split.
        * eapply replace_ins_intro with (N' := f1) (wn := 0%Z) (L := f2) (wl := 0%Z); try eassumption; try reflexivity.
          -- apply insert_at_slot_set. exact Hnone'.
          -- eapply redirect_ok. exact Hs.
        * eapply local_res_upds with (fr := fresh) (old := ids0);
            [right; reflexivity | exact R | exact P | exact fresh_nodup | apply incl_refl | exact Hnd0
            | apply incl_tl, incl_refl | exact fresh_unalloc | exact Ha |].
          intros y [<- | [<- | [<- | []]]]; cbn; tauto.
    - set (l := [(f1, mk 0%Z (CLeaf k v)); (n, mk (bump (word cl)) (CInode p (insert_at pos (b, f1) cs)))]).
      destruct (rep_insert_leaf l c2 p ch cs ids0 n f1 (bump (word cl)) b pos) as (ids' & R & P); try assumption.
      + repeat constructor; cbn; intuition congruence.
      + left. reflexivity.
      + right. left. reflexivity.
      + apply bump_free. exact Hfree.
      + intros m Hm HI. destruct (Hold m Hm) as (A2 & A1 & An). cbn in HI. intuition congruence.
      + exists (set_hp g (upds (hp g) l)). split.
        * eapply add_leaf_intro with (L := f1) (wl := 0%Z); try eassumption; try reflexivity.
          -- eapply at_slot_at_inode. exact HA.
          -- apply insert_at_slot_set. exact Hnone'.
        * eapply local_res_upds with (fr := [f1]) (old := n :: ids0);
            [left; split; reflexivity | exact R | rewrite P; apply perm_swap | repeat constructor; intros []
            | intros y [<- | []]; left; reflexivity | exact Hnd | apply incl_refl | exact fresh_unalloc | exact Ha |].
          intros y [<- | [<- | []]]; cbn; tauto.
  Qed.

  Hypothesis HL : 1 <= L <= 8.

  Lemma ins_go_WF : forall fuel t pi t' e, AWF L t pi -> ext pi k -> L - length pi < fuel ->
    insert_go fuel t k v id (length pi) = Ok (Some (t', e)) -> AWF L t' pi.
  Proof.
    intros fuel t pi t' e HW Hext Hfuel Hins.
    pose proof (insert_go_correct L k v id HL Hk fuel t pi HW Hext Hfuel) as IC.
    destruct (assoc k (leaves t)); [rewrite IC in Hins; discriminate|].
    destruct IC as (n' & e' & E & HW' & _). rewrite E in Hins. injection Hins as <- <-. exact HW'.
  Qed.

  Lemma ins_go_commit : forall fuel t pi s n ids t' e,
    slot_holds g s n pi -> rep (hp g) t n ids -> NoDup ids -> AWF L t pi -> ext pi k ->
    L - length pi < fuel ->
    insert_go fuel t k v id (length pi) = Ok (Some (t', e)) ->
    exists g', ins_shape e k v g g' /\ local_res g s n ids fresh t' g'.
  Proof.
    induction fuel as [|f IH]; intros t pi s n ids t' e Hs Hr Hnd HW Hext Hfuel Hins; [lia|].
    pose proof (ins_go_WF _ _ _ _ _ HW Hext Hfuel Hins) as HW'.
    destruct t as [lid lk lv | c p ch].
    { destruct (insert_go_leaf _ _ _ _ _ _ _ _ _ _ Hins) as (pre & b1 & b2 & -> & ->).
      eapply ins_leaf_split_case; eassumption. }
    destruct (inode_prelude L k c p ch pi Hk HW Hext) as (Hlt & Hrem & [(Hsl & _) | (Hsl & b & Hb & Hbyte & Hext' & _)]).
    - (* prefix split *)
      cbn [insert_go] in Hins. rewrite Hlt in Hins. apply Nat.ltb_lt in Hsl. rewrite Hsl in Hins.
      destruct (byte_at p _) as [sb|] eqn:Esb; [|discriminate]. cbn [bind] in Hins.
      destruct (byte_at k _) as [nb|] eqn:Enb; [|discriminate]. cbn [bind] in Hins.
      injection Hins as <- <-. cbn [ins_shape].
      apply byte_at_Ok in Esb. apply nth_error_decomp in Esb.
      rewrite Esb in Hr. eapply ins_prefix_split_case; eassumption.
    - cbn [insert_go] in Hins. rewrite Hlt in Hins.
      assert (Hsl' : (shared_len p (skipn (length pi) k) <? length p) = false) by (apply Nat.ltb_ge; lia).
      rewrite Hsl' in Hins. unfold byte_at in Hins at 1. rewrite Hb in Hins. cbn [bind] in Hins.
      destruct (ArtModel.find_child ch b 0) as [[i c']|] eqn:Hfc.
      + (* descend *)
        apply find_child_some in Hfc. destruct Hfc as (l1 & l2 & -> & ->). cbn [Nat.add] in Hins.
        destruct (child_of_WF _ _ _ _ _ _ _ _ HW) as [_ Hc'].
        assert (Hlen : length pi + length p < L) by (apply WF_inode in HW; tauto).
        replace (S (length pi + length p)) with (length (pi ++ p ++ [b])) in Hins by (rewrite !app_length; cbn; lia).
        destruct (insert_go f c' k v id (length (pi ++ p ++ [b]))) as [[[c'' e']|]|] eqn:Hrec; try discriminate.
        cbn [bind] in Hins. injection Hins as <- <-. rewrite replace_nth_mid.
        destruct (local_descend g s n pi c p l1 b c' l2 ids fresh Hs Hr Hnd (AWF_keys_nodup _ _ _ _ _ HW) fresh_unalloc)
          as (m & im & Hsm & Rm & Hndm & Hlift).
        destruct (IH c' (pi ++ p ++ [b]) (SChild n b) m im c'' e') as (g' & Hshape & Hres); try assumption.
        * rewrite !app_length. cbn. lia.
        * exists g'. split; [exact Hshape | apply Hlift; exact Hres].
      + (* a leaf here *)
        destruct (cls_eqb c C256).
        * injection Hins as <- <-. eapply (ins_child_case false); eassumption.
        * destruct (Nat.eqb (length ch) (cap c)); injection Hins as <- <-;
            [eapply (ins_child_case true) | eapply (ins_child_case false)]; eassumption.
  Qed.

End Insert.

(** the structural event of a successful insert (what the statistics count) *)
Definition insert_event (d : db) (k v : list Z) : option ev :=
  match ArtModel.root d with
  | None => Some ERootLeaf
  | Some n => match insert_go (fuel_for k) n k v (next_id d) 0 with Ok (Some (_, e)) => Some e | _ => None end
  end.

Theorem insert_refines_shape : forall L sz d k v d' g, 1 <= L <= 8 ->
  represents g d -> db_WF L d -> key_ok L k ->
  db_insert sz d k v = Ok (d', true) ->
  exists e g', insert_event d k v = Some e /\ ins_shape e k v g g' /\ represents g' d'.
Proof.
  intros L sz d k v d' g HL [[bound Hb] Hroot] HW Hk Hins. unfold db_insert in Hins. unfold db_WF in HW.
  unfold insert_event.
  destruct (ArtModel.root d) as [t|] eqn:Hrt.
  - destruct Hroot as (n & ids & Hrg & Hr & Hnd).
    destruct (insert_go (fuel_for k) t k v (next_id d) 0) as [[[t' e]|]|] eqn:Hgo; cbn [bind] in Hins; try discriminate.
    injection Hins as <-.
    destruct (ins_go_commit L k v (next_id d) g bound (S bound) Hk (Hb _ (le_n _)) (Hb _ (le_S _ _ (le_n _))) (n_Sn _) HL
                (fuel_for k) t [] SRoot n ids t' e) as (g' & Hshape & Hres); try assumption.
    + cbn. split; [exact Hrg | reflexivity].
    + apply ext_nil.
    + eapply fuel_ok. exact Hk.
    + exists e, g'. split; [reflexivity | split; [exact Hshape|]].
      exact (local_res_root g t n ids _ t' g' bound Hrg Hr Hb Hres).
  - injection Hins as <-. set (h := upd (hp g) bound (mk 0%Z (CLeaf k v))).
    exists ERootLeaf, (set_root g h (Some bound)). split; [reflexivity | split].
    + eapply root_insert_intro with (L := bound) (wl := 0%Z); [exact Hroot | apply Hb; lia | reflexivity | reflexivity].
    + split.
      * exists (S bound). intros m Hm. cbn. unfold h. rewrite upd_neq by lia. apply Hb. lia.
      * cbn. exists bound, [bound]. split; [reflexivity | split; [|repeat constructor; intros []]].
        eapply rep_leaf_mk; [apply upd_eq | reflexivity].
Qed.

Theorem insert_refines : forall L sz d k v d' g, 1 <= L <= 8 ->
  represents g d -> db_WF L d -> key_ok L k ->
  db_insert sz d k v = Ok (d', true) ->
  exists g', ins_commit k v g g' /\ represents g' d'.
Proof.
  intros L sz d k v d' g HL Hrep HW Hk Hins.
  destruct (insert_refines_shape L sz d k v d' g HL Hrep HW Hk Hins) as (e & g' & _ & Hs & Hr).
  exists g'. split; [eapply ins_shape_commit; exact Hs | exact Hr].
Qed.

Theorem insert_present : forall sz d k v d', db_insert sz d k v = Ok (d', false) -> d' = d.
Proof.
  intros sz d k v d' H. unfold db_insert in H. destruct (ArtModel.root d); [|discriminate].
  destruct (insert_go _ _ _ _ _ _) as [[[t' e]|]|]; cbn [bind] in H; try discriminate. injection H as <-. reflexivity.
Qed.
