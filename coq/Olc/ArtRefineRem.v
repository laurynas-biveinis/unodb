(** C03e, remove side: every structural case of ArtModel.remove_go is one
    remove commit shape of Olc/WriteModel.v on a representing heap. *)
From Coq Require Import List ZArith Lia.
From Unodb Require Import Base.Lex Art.ArtModel Art.ArtSpec Art.ArtInv Art.ArtLemmas Art.ArtProofs.
From Unodb Require Import Lock.LockModel Olc.ReadModel Olc.WriteModel Olc.WriteShapes Olc.WriteSlots Olc.ArtRefine.
Import ListNotations.
Local Open Scope Z_scope.
Local Open Scope nat_scope.

Local Notation AWF := ArtInv.WF.

(** which commit shape each structural event of the sequential remove is *)
Definition rem_shape (e : ev) (k : list Z) (g g' : gstate) : Prop :=
  match e with
  | ERemoveRoot => root_remove k g g'
  | ERemoveLeaf _ => remove_leaf k g g'
  | EShrink C4 => collapse k g g'
  | EShrink _ => replace_rem k g g'
  | _ => False
  end.

Lemma rem_shape_commit : forall e k g g', rem_shape e k g g' -> rem_commit k g g'.
Proof.
  intros e k g g' H. destruct e as [| | | | | | c | c |]; cbn in H; try contradiction.
  - apply rc_remove_leaf; exact H.
  - destruct c; [apply rc_collapse | apply rc_replace_rem | apply rc_replace_rem | apply rc_replace_rem]; exact H.
  - apply rc_root_remove; exact H.
Qed.

Lemma remove_mid_slot_set : forall b (m : nid) cs1 cs2, ~ In b (map fst cs1) -> ~ In b (map fst cs2) ->
  slot_set (cs1 ++ (b, m) :: cs2) b None (cs1 ++ cs2).
Proof.
  intros b m cs1 cs2 H1 H2 x. destruct (Z.eqb_spec x b) as [->|Hne].
  - apply find_child_None_iff. rewrite map_app. intros HI. apply in_app_or in HI. tauto.
  - symmetry. apply find_child_skip. exact Hne.
Qed.

Lemma rem_setup : forall h c p l1 b lid lk lv l2 n ids,
  rep h (Inode c p (l1 ++ (b, Leaf lid lk lv) :: l2)) n ids -> NoDup ids ->
  NoDup (map fst (l1 ++ (b, Leaf lid lk lv) :: l2)) ->
  exists cl cs1 m cs2 i1 i2 cL, ids = n :: i1 ++ [m] ++ i2 /\
    h n = Some cl /\ w_is_free (word cl) = true /\ cont cl = CInode p (cs1 ++ (b, m) :: cs2) /\
    rep_list h l1 cs1 i1 /\ rep_list h l2 cs2 i2 /\ h m = Some cL /\ cont cL = CLeaf lk lv /\
    ~ In b (map fst cs1) /\ ~ In b (map fst cs2) /\
    NoDup (n :: i1 ++ i2) /\ ~ In m (n :: i1 ++ i2) /\ incl (n :: i1 ++ i2) ids.
Proof.
  intros h c p l1 b lid lk lv l2 n ids Hr Hnd Hkeys.
  destruct (rep_child _ _ _ _ _ _ _ _ _ Hr Hkeys) as (cl & cs1 & m & cs2 & i1 & im & i2 & -> & Hc & Hfree & Hcont & R1 & Rm & R2 & Hb1 & Hb2).
  destruct (rep_root_cell _ _ _ _ Rm) as (cL & HcL & _ & HkL & ->).
  apply (NoDup_mid_iff _ (n :: i1) [m] i2) in Hnd. destruct Hnd as (_ & N12 & D).
  exists cl, cs1, m, cs2, i1, i2, cL. repeat split; try assumption.
  - exact (D m (or_introl eq_refl)).
  - exact (incl_drop_mid _ (n :: i1) [m] i2).
Qed.

(** the cell of the surviving child of a collapsing node *)
Definition prepend_cell (p : list Z) (b : Z) (c : cell) : cell :=
  match cont c with
  | CLeaf _ _ => c
  | CInode pc cs => mk (bump (word c)) (CInode (p ++ b :: pc) cs)
  end.

Lemma prepend_cell_spec : forall p b c,
  (exists kc vc, cont c = CLeaf kc vc /\ prepend_cell p b c = c) \/
  (exists pc cs, cont c = CInode pc cs /\ prepend_cell p b c = mk (bump (word c)) (CInode (p ++ b :: pc) cs)).
Proof. intros p b c. unfold prepend_cell. destruct (cont c); [left | right]; eauto. Qed.

Lemma rep_prepend : forall h h' p b t C ids cC, rep h t C ids -> NoDup ids -> h C = Some cC ->
  h' C = Some (prepend_cell p b cC) -> (forall x, In x ids -> x <> C -> h' x = h x) ->
  rep h' (prepend_prefix p b t) C ids.
Proof.
  intros h h' p b t C ids cC Hr Hnd HcC Hc' Hoff. destruct (rep_root_cell _ _ _ _ Hr) as (c0 & Hc0 & Hf & M).
  rewrite HcC in Hc0. injection Hc0 as <-. unfold prepend_cell in Hc'. destruct t; cbn [prepend_prefix].
  - destruct M as [Hk ->]. rewrite Hk in Hc'. eapply rep_leaf; eassumption.
  - destruct M as (cs & ids0 & Hk & Hl & ->). rewrite Hk in Hc'.
    eapply rep_inode_mk; [exact Hc' | apply bump_free; exact Hf |].
    eapply rep_list_ext; [exact Hl|]. intros x Hx. apply Hoff; [right; exact Hx|]. intros ->. inversion Hnd. contradiction.
Qed.

Lemma two_sibling : forall (A : Type) (l1 l2 : list A) x y, length (l1 ++ x :: l2) = 2 ->
  nth_error (l1 ++ x :: l2) (if Nat.eqb (length l1) 0 then 1 else 0) = Some y -> l1 ++ l2 = [y].
Proof.
  intros A l1 l2 x y Hlen Hnth. destruct l1 as [|a [|a' l1]]; cbn in *.
  - destruct l2 as [|b [|b' l2]]; cbn in *; try lia. injection Hnth as ->. reflexivity.
  - destruct l2; cbn in *; [|lia]. injection Hnth as ->. reflexivity.
  - rewrite app_length in Hlen. cbn in Hlen. lia.
Qed.

Section Remove.
  Variables (L : nat) (k : list Z) (g : gstate) (f1 : nid).
  Hypothesis Hf1 : hp g f1 = None.

  Let fresh := [f1].

  Lemma fresh_unalloc1 : forall f, In f fresh -> hp g f = None.
  Proof. intros f [<- | []]. exact Hf1. Qed.

  (** S2 / S5: the leaf for k goes, in place or ([copy]) with the rest of the
      node moving into a fresh copy at f1 *)
  Lemma rem_child_case : forall (copy : bool) s n pi c c2 p l1 b lid lv l2 ids,
    slot_holds g s n pi -> rep (hp g) (Inode c p (l1 ++ (b, Leaf lid k lv) :: l2)) n ids -> NoDup ids ->
    NoDup (map fst (l1 ++ (b, Leaf lid k lv) :: l2)) -> ext (pi ++ p ++ [b]) k ->
    exists g', (if copy then replace_rem k g g' else remove_leaf k g g') /\
      local_res g s n ids fresh (Inode c2 p (l1 ++ l2)) g'.
  Proof.
    intros copy s n pi c c2 p l1 b lid lv l2 ids Hs Hr Hnd Hkeys Hext.
    pose proof (fun x => rep_alloc _ _ _ _ x Hr) as Ha.
    destruct (rem_setup _ _ _ _ _ _ _ _ _ _ _ Hr Hnd Hkeys)
      as (cl & cs1 & m & cs2 & i1 & i2 & cL & -> & Hc & Hfree & Hcont & R1 & R2 & HcL & HkL & Hb1 & Hb2 & Hnd' & Hm & Hinc).
    pose proof (at_slot_inode_of_ext g k s n pi cl p _ b Hs Hext Hc Hcont) as HA.
    (* the remaining children, in a heap that touches m, n, f1 at most *)
    assert (Rl : forall l, incl (map fst l) [m; n; f1] -> rep_list (upds (hp g) l) (l1 ++ l2) (cs1 ++ cs2) (i1 ++ i2)).
    { intros l Hl. apply rep_list_upds; [apply rep_list_app; assumption|]. intros x Hx HI. apply Hl in HI.
      assert (Hx' : In x (n :: i1 ++ i2)) by (right; exact Hx).
      destruct HI as [<- | [<- | [<- | []]]]; [contradiction | inversion Hnd'; contradiction | exact (Ha _ (Hinc _ Hx') Hf1)]. }
    assert (Hnm : n <> m) by (intros ->; apply Hm; left; reflexivity).
    destruct copy.
    - set (l := [(m, mk 1%Z (cont cL)); (f1, mk 0%Z (CInode p (cs1 ++ cs2))); (n, mk 1%Z (cont cl))]).
      assert (Hkl : NoDup (map fst l)) by (repeat constructor; cbn; intuition congruence).
      exists (redirect g s (upds (hp g) l) f1). split.
      + eapply replace_rem_intro with (N' := f1) (wn := 0%Z) (L := m) (cs' := cs1 ++ cs2); try eassumption; try reflexivity.
        * apply find_child_mid. exact Hb1.
        * apply remove_mid_slot_set; assumption.
        * eapply redirect_ok. exact Hs.
      + inversion Hnd' as [|x l0 _ Hnd12]; subst.
        eapply local_res_upds with (fr := fresh) (old := i1 ++ i2) (ids' := f1 :: i1 ++ i2);
          [right; reflexivity | | reflexivity | repeat constructor; intros [] | apply incl_refl | exact Hnd12
           | intros x Hx; apply Hinc; right; exact Hx | exact fresh_unalloc1 | exact Ha |].
        * eapply rep_inode_mk; [apply upds_at; [exact Hkl | right; left; reflexivity] | reflexivity | apply Rl].
          intros x [<- | [<- | [<- | []]]]; cbn; tauto.
        * intros x [<- | [<- | [<- | []]]]; cbn; rewrite in_app_iff; cbn; tauto.
    - set (l := [(m, mk 1%Z (cont cL)); (n, mk (bump (word cl)) (CInode p (cs1 ++ cs2)))]).
      assert (Hkl : NoDup (map fst l)) by (repeat constructor; cbn; intuition congruence).
      exists (set_hp g (upds (hp g) l)). split.
      + eapply remove_leaf_intro with (L := m) (cs' := cs1 ++ cs2); try eassumption; try reflexivity.
        * eapply at_slot_at_inode. exact HA.
        * apply find_child_mid. exact Hb1.
        * apply remove_mid_slot_set; assumption.
      + eapply local_res_upds with (fr := []) (old := n :: i1 ++ i2) (ids' := n :: i1 ++ i2);
          [left; split; reflexivity | | reflexivity | constructor | intros x [] | exact Hnd' | exact Hinc
           | exact fresh_unalloc1 | exact Ha |].
        * eapply rep_inode_mk; [apply upds_at; [exact Hkl | right; left; reflexivity] | apply bump_free; exact Hfree | apply Rl].
          intros x [<- | [<- | []]]; cbn; tauto.
        * intros x [<- | [<- | []]]; cbn; rewrite in_app_iff; cbn; tauto.
  Qed.

  Lemma rem_collapse_case : forall s n pi c p l1 b lid lv l2 ids sb sib,
    slot_holds g s n pi -> rep (hp g) (Inode c p (l1 ++ (b, Leaf lid k lv) :: l2)) n ids -> NoDup ids ->
    NoDup (map fst (l1 ++ (b, Leaf lid k lv) :: l2)) -> ext (pi ++ p ++ [b]) k ->
    l1 ++ l2 = [(sb, sib)] ->
    exists g', collapse k g g' /\ local_res g s n ids fresh (prepend_prefix p sb sib) g'.
  Proof.
    intros s n pi c p l1 b lid lv l2 ids sb sib Hs Hr Hnd Hkeys Hext Hsib.
    pose proof (fun x => rep_alloc _ _ _ _ x Hr) as Ha.
    destruct (rem_setup _ _ _ _ _ _ _ _ _ _ _ Hr Hnd Hkeys)
      as (cl & cs1 & m & cs2 & i1 & i2 & cL & -> & Hc & Hfree & Hcont & R1 & R2 & HcL & HkL & Hb1 & Hb2 & Hnd' & Hm & Hinc).
    pose proof (at_slot_inode_of_ext g k s n pi cl p _ b Hs Hext Hc Hcont) as HA.
    (* the sibling: the one remaining child, at C *)
    pose proof (rep_list_app _ _ _ _ _ _ _ R1 R2) as R12. rewrite Hsib in R12.
    destruct (rep_list_single _ _ _ _ _ R12) as (C & Ecs & Rsib). clear R12.
    assert (Hsbb : sb <> b).
    { intros ->. assert (HI : In b (map fst (cs1 ++ cs2))) by (rewrite Ecs; left; reflexivity).
      rewrite map_app in HI. apply in_app_or in HI. tauto. }
    assert (Hfind : forall b0, find_child b0 (cs1 ++ (b, m) :: cs2) =
                      if (b0 =? b)%Z then Some m else if (b0 =? sb)%Z then Some C else None).
    { intros b0. destruct (Z.eqb_spec b0 b) as [->|Hne]; [apply find_child_mid; exact Hb1|].
      rewrite (find_child_skip _ _ _ _ _ Hne), Ecs. reflexivity. }
    assert (HCin : In C (n :: i1 ++ i2)) by (right; eapply rep_root_in; exact Rsib).
    inversion Hnd' as [|x l0 HnC Hnd12]; subst.
    destruct (rep_root_cell _ _ _ _ Rsib) as (cC & HcC & _).
    set (l := [(m, mk 1%Z (cont cL)); (n, mk 1%Z (cont cl)); (C, prepend_cell p sb cC)]).
    assert (Hkl : NoDup (map fst l)).
    { repeat constructor; cbn; [|intros [<- | []]; apply HnC; eapply rep_root_in; exact Rsib | intros []].
      intros [<- | [<- | []]]; apply Hm; [left; reflexivity | exact HCin]. }
    exists (redirect g s (upds (hp g) l) C). split.
    - eapply collapse_intro with (L := m) (bc := sb) (C := C); try eassumption; try reflexivity.
      + apply prepend_cell_spec.
      + eapply redirect_ok. exact Hs.
    - eapply local_res_upds with (fr := []) (old := i1 ++ i2) (ids' := i1 ++ i2);
        [right; reflexivity | | reflexivity | constructor | intros x [] | exact Hnd12
         | intros x Hx; apply Hinc; right; exact Hx | exact fresh_unalloc1 | exact Ha |].
      + eapply rep_prepend; [exact Rsib | exact Hnd12 | exact HcC | apply upds_at; [exact Hkl | right; right; left; reflexivity] |].
        intros x Hx HxC. apply upds_frame. intros [<- | [<- | [<- | []]]]; [apply Hm; right; exact Hx | exact (HnC Hx) | exact (HxC eq_refl)].
      + intros x [<- | [<- | [<- | []]]]; [| | apply Hinc in HCin; right; exact HCin]; cbn; rewrite in_app_iff; cbn; tauto.
  Qed.

  Hypothesis Hk : key_ok L k.

  Lemma rem_go_commit : forall fuel t pi s n ids t' e,
    slot_holds g s n pi -> rep (hp g) t n ids -> NoDup ids -> AWF L t pi -> ext pi k ->
    remove_go fuel t k (length pi) = Ok (RmReplaced t' e) ->
    exists g', rem_shape e k g g' /\ local_res g s n ids fresh t' g'.
  Proof.
    induction fuel as [|f IH]; intros t pi s n ids t' e Hs Hr Hnd HW Hext Hrem; [discriminate|].
    destruct t as [lid lk lv | c p ch]; [discriminate|].
    destruct (inode_prelude L k c p ch pi Hk HW Hext) as (Hlt & Hrm & [(Hsl & _) | (Hsl & b & Hb & Hbyte & Hext' & _)]);
      cbn [remove_go] in Hrem; rewrite Hlt in Hrem.
    { apply Nat.ltb_lt in Hsl. rewrite Hsl in Hrem. discriminate. }
    assert (Hsl' : (shared_len p (skipn (length pi) k) <? length p) = false) by (apply Nat.ltb_ge; lia).
    rewrite Hsl' in Hrem. unfold byte_at in Hrem at 1. rewrite Hb in Hrem. cbn [bind] in Hrem.
    destruct (ArtModel.find_child ch b 0) as [[i c']|] eqn:Hfc; [|discriminate].
    apply find_child_some in Hfc. destruct Hfc as (l1 & l2 & -> & ->). cbn [Nat.add] in Hrem.
    pose proof (AWF_keys_nodup _ _ _ _ _ HW) as Hkeys.
    destruct c' as [lid lk lv | c3 p3 ch3].
    - destruct (lex_compare k lk) eqn:Hcmp; try discriminate. apply lex_compare_eq in Hcmp. subst lk.
      destruct (Nat.eqb (length (l1 ++ (b, Leaf lid k lv) :: l2)) (min_size c)) eqn:Hmin.
      + destruct c.
        * destruct (nth_error _ _) as [[sb sib]|] eqn:Hnth; [|discriminate]. injection Hrem as <- <-. cbn [rem_shape].
          apply Nat.eqb_eq in Hmin. cbn [min_size] in Hmin. apply two_sibling in Hnth; [|exact Hmin].
          eapply rem_collapse_case; eassumption.
        * injection Hrem as <- <-. rewrite remove_nth_mid. eapply (rem_child_case true); eassumption.
        * injection Hrem as <- <-. rewrite remove_nth_mid. eapply (rem_child_case true); eassumption.
        * injection Hrem as <- <-. rewrite remove_nth_mid. eapply (rem_child_case true); eassumption.
      + injection Hrem as <- <-. rewrite remove_nth_mid. eapply (rem_child_case false); eassumption.
    - destruct (child_of_WF _ _ _ _ _ _ _ _ HW) as [_ Hc'].
      replace (S (length pi + length p)) with (length (pi ++ p ++ [b])) in Hrem by (rewrite !app_length; cbn; lia).
      destruct (remove_go f (Inode c3 p3 ch3) k (length (pi ++ p ++ [b]))) as [[|c'' e']|] eqn:Hrec; try discriminate.
      cbn [bind] in Hrem. injection Hrem as <- <-. rewrite replace_nth_mid.
      destruct (local_descend g s n pi c p l1 b _ l2 ids fresh Hs Hr Hnd Hkeys fresh_unalloc1) as (m & im & Hsm & Rm & Hndm & Hlift).
      destruct (IH (Inode c3 p3 ch3) (pi ++ p ++ [b]) (SChild n b) m im c'' e') as (g' & Hshape & Hres); try assumption.
      exists g'. split; [exact Hshape | apply Hlift; exact Hres].
  Qed.

End Remove.

(** the structural event of a successful remove (what the statistics count) *)
Definition remove_event (d : db) (k : list Z) : option ev :=
  match ArtModel.root d with
  | None => None
  | Some (Leaf _ _ _) => Some ERemoveRoot
  | Some n => match remove_go (fuel_for k) n k 0 with Ok (RmReplaced _ e) => Some e | _ => None end
  end.

Theorem remove_refines_shape : forall L sz d k d' g,
  represents g d -> db_WF L d -> key_ok L k ->
  db_remove sz d k = Ok (d', true) ->
  exists e g', remove_event d k = Some e /\ rem_shape e k g g' /\ represents g' d'.
Proof.
  intros L sz d k d' g [[bound Hb] Hroot] HW Hk Hrem. unfold db_remove in Hrem. unfold db_WF in HW.
  unfold remove_event.
  destruct (ArtModel.root d) as [[lid lk lv | c p ch]|] eqn:Hrt; [| |discriminate].
  - destruct (lex_compare k lk) eqn:Hcmp; try discriminate. apply lex_compare_eq in Hcmp. subst lk.
    injection Hrem as <-. destruct Hroot as (n & ids & Hrg & Hr & Hnd).
    destruct (rep_root_cell _ _ _ _ Hr) as (cL & HcL & _ & HkL & _).
    exists ERemoveRoot, (set_root g (upd (hp g) n (mk 1%Z (cont cL))) None). split; [reflexivity | split].
    + eapply root_remove_intro; [exact Hrg | exact HcL | exact HkL | reflexivity].
    + split; [|reflexivity]. exists bound. intros m Hm. cbn. rewrite upd_neq; [apply Hb; exact Hm|].
      intros ->. rewrite (Hb _ Hm) in HcL. discriminate.
  - destruct Hroot as (n & ids & Hrg & Hr & Hnd).
    destruct (get_go (fuel_for k) (Inode c p ch) k 0) as [gr|]; cbn [bind] in Hrem; [|discriminate].
    destruct (remove_go (fuel_for k) (Inode c p ch) k 0) as [[|t' e]|] eqn:Hgo; cbn [bind] in Hrem; try discriminate.
    destruct gr as [[lid lv]|]; [|discriminate]. injection Hrem as <-.
    destruct (rem_go_commit L k g bound (Hb _ (le_n _)) Hk (fuel_for k) (Inode c p ch) [] SRoot n ids t' e)
      as (g' & Hshape & Hres); try assumption.
    + cbn. split; [exact Hrg | reflexivity].
    + apply ext_nil.
    + exists e, g'. split; [reflexivity | split; [exact Hshape|]].
      exact (local_res_root g _ n ids _ t' g' bound Hrg Hr Hb Hres).
Qed.

Theorem remove_refines : forall L sz d k d' g,
  represents g d -> db_WF L d -> key_ok L k ->
  db_remove sz d k = Ok (d', true) ->
  exists g', rem_commit k g g' /\ represents g' d'.
Proof.
  intros L sz d k d' g Hrep HW Hk Hrem.
  destruct (remove_refines_shape L sz d k d' g Hrep HW Hk Hrem) as (e & g' & _ & Hs & Hr).
  exists g'. split; [eapply rem_shape_commit; exact Hs | exact Hr].
Qed.

Theorem remove_absent : forall sz d k d', db_remove sz d k = Ok (d', false) -> d' = d.
Proof.
  intros sz d k d' H. unfold db_remove in H. destruct (ArtModel.root d) as [[lid lk lv | c p ch]|].
  - destruct (lex_compare k lk); [discriminate | |]; injection H as <-; reflexivity.
  - destruct (get_go _ _ _ _) as [gr|]; cbn [bind] in H; [|discriminate].
    destruct (remove_go _ _ _ _) as [[|t' e]|]; cbn [bind] in H; try discriminate.
    + injection H as <-. reflexivity.
    + destruct gr as [[? ?]|]; discriminate.
  - injection H as <-. reflexivity.
Qed.
