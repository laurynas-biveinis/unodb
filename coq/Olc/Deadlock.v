(** C14: no wait cycle.  Over every accepted global trace of the OLC index
    (Olc/OlcTrace.v: every node's projection accepted by the lock acceptor, no
    spin step by a thread holding a write guard):

    - the per-node ghost (guards of Lock/LockModel.v) and the global ghost
      (held_after) agree: whoever is in a node's guard set holds that node;
    - a thread that holds a write guard at the end of the trace is not in a
      waiting step (its last event is not a spin);
    - hence every node whose word is write-locked at the end of the trace has
      a unique holder that is not waiting, and a configuration in which every
      unfinished thread is spinning on a write-locked node cannot exist:
      waits-for has no edge into a waiting thread, let alone a cycle. *)
From Coq Require Import List Bool PeanoNat.
From Unodb Require Import Lock.LockModel Lock.LockProofs Olc.OlcTrace Olc.OlcProofs.
Import ListNotations.

Definition is_of (t : tid) (e : gev) : bool := Nat.eqb (ev_tid (snd e)) t.
Definition last_of (t : tid) (tr : list gev) : option gev := find (is_of t) (rev tr).

(** t is in a waiting step: its last event is the spin body of try_read_lock on node b *)
Definition spinning_on (tr : list gev) (t : tid) (b : blk) : Prop := last_of t tr = Some (b, ESpin t).

Definition inits_ok (inits : list (blk * lstate)) : Prop :=
  forall b s0, In (b, s0) inits -> LInv s0 /\ guards s0 = [].

Lemma held_after_other held b b' e u :
  b <> b' -> In (b, u) held -> In (b, u) (held_after held [(b', e)]).
Proof.
  intros Hn Hin.
  assert (F : In (b, u) (filter (fun h => negb (Nat.eqb (fst h) b' && Nat.eqb (snd h) (ev_tid e))) held)).
  { apply filter_In. split; [exact Hin|]. cbn [fst]. now destruct (Nat.eqb_spec b b'). }
  destruct e as [| | |t v [|]| | | |]; cbn [held_after]; auto. now right.
Qed.

Lemma guards_are_held b : forall tr held s0 s,
  LInv s0 -> (forall u, In u (guards s0) -> In (b, u) held) ->
  lrun s0 (project b tr) = Some s ->
  forall u, In u (guards s) -> In (b, u) (held_after held tr).
Proof.
  induction tr as [|[b' e] tr IH]; intros held s0 s I Hg Hr.
  - injection Hr as <-. exact Hg.
  - rewrite held_after_cons. destruct (Nat.eq_dec b b') as [<-|Hn].
    + rewrite project_cons_same in Hr. cbn [lrun] in Hr.
      destruct (lstep s0 e) as [s1|] eqn:E; [|discriminate].
      apply (IH _ s1 s (lstep_inv _ _ _ I E)); [|exact Hr].
      destruct (lstep_shape _ _ _ I E) as [e Rd|t G|t G|t G|t i x G]; cbn [held_after guards].
      * destruct e as [| | |? ? [|]| | | |]; try discriminate; exact Hg.
      * intros w [<-|[]]. now left.
      * intros w [].
      * intros w [].
      * exact Hg.
    + rewrite project_cons_other in Hr by exact Hn. apply (IH _ s0 s I); [|exact Hr].
      intros w Hw. apply held_after_other; auto.
Qed.

Lemma node_state inits b s0 tr s :
  inits_ok inits -> In (b, s0) inits -> lrun s0 (project b tr) = Some s ->
  LInv s /\ forall u, In u (guards s) -> In (b, u) (held_after [] tr).
Proof.
  intros Hi Hin Hr. destruct (Hi _ _ Hin) as (I0 & G0). split; [exact (lrun_inv _ _ _ I0 Hr)|].
  apply (guards_are_held b tr [] s0 s I0); [rewrite G0; intros ? []|exact Hr].
Qed.

Lemma held_after_no_events u : forall tr held b,
  Forall (fun e => is_of u e = false) tr -> In (b, u) (held_after held tr) -> In (b, u) held.
Proof.
  induction tr as [|[b' e] tr IH]; intros held b Hf Hin; [exact Hin|].
  rewrite held_after_cons in Hin. inversion Hf as [|? ? Hx Hf']; subst.
  apply IH in Hin; [|exact Hf']. clear IH Hf Hf'.
  unfold is_of in Hx. cbn [snd] in Hx. apply Nat.eqb_neq in Hx.
  destruct e as [| | |t v [|]| | | |]; cbn [held_after ev_tid] in *; try exact Hin.
  - destruct Hin as [E|Hin]; [injection E as _ E; contradiction|exact Hin].
  - apply filter_In in Hin. tauto.
  - apply filter_In in Hin. tauto.
Qed.

Lemma find_rev_split {A} (p : A -> bool) : forall l x,
  find p (rev l) = Some x -> exists l1 l2, l = l1 ++ x :: l2 /\ p x = true /\ Forall (fun y => p y = false) l2.
Proof.
  intros l. induction l as [|a l IH] using rev_ind; intros x H; [discriminate|].
  rewrite rev_unit in H. cbn [find] in H. destruct (p a) eqn:Pa.
  - injection H as <-. exists l, []. repeat split; auto.
  - apply IH in H as (l1 & l2 & -> & Px & F). exists l1, (l2 ++ [a]).
    rewrite <- app_assoc. repeat split; auto. apply Forall_app. split; [exact F|repeat constructor; exact Pa].
Qed.

Lemma holds_any_in held b u : In (b, u) held -> holds_any held u = true.
Proof.
  intros H. unfold holds_any. apply existsb_exists. exists (b, u). split; [exact H|cbn; apply Nat.eqb_refl].
Qed.

Theorem holder_not_spinning inits tr b u :
  olc_trace_ok inits tr = true -> In (b, u) (held_after [] tr) -> forall b', ~ spinning_on tr u b'.
Proof.
  unfold olc_trace_ok, spinning_on, last_of. intros H Hin b' Hs.
  apply andb_true_iff in H as [_ H].
  apply find_rev_split in Hs as (l1 & l2 & -> & _ & F).
  rewrite no_wait_app in H. apply andb_true_iff in H as [_ H].
  cbn [no_wait_while_holding] in H. apply andb_true_iff in H as [H _].
  rewrite held_after_app, held_after_cons in Hin. apply held_after_no_events in Hin; [|exact F].
  cbn [held_after] in Hin. apply holds_any_in in Hin. rewrite Hin in H. discriminate.
Qed.

Theorem locked_node_has_running_holder inits tr b s0 s :
  olc_trace_ok inits tr = true -> inits_ok inits -> In (b, s0) inits ->
  lrun s0 (project b tr) = Some s -> w_is_write_locked (lw s) = true ->
  exists u, guards s = [u] /\ In (b, u) (held_after [] tr) /\ forall b', ~ spinning_on tr u b'.
Proof.
  intros Hok Hi Hin Hr Hw. destruct (node_state _ _ _ _ _ Hi Hin Hr) as (I & Hg).
  apply (locked_inv _ I) in Hw as (u & G). rewrite G in Hg. specialize (Hg u (or_introl eq_refl)).
  exists u. split; [exact G|]. split; [exact Hg|]. eapply holder_not_spinning; eauto.
Qed.

(** no deadlock: it cannot be that every unfinished thread is spinning on a
    node that is still write-locked (last hypothesis: the holders are
    unfinished threads) *)
Theorem not_all_waiting inits tr (ts : list tid) :
  olc_trace_ok inits tr = true -> inits_ok inits ->
  (forall t, In t ts -> exists b s0 s, In (b, s0) inits /\ spinning_on tr t b /\
       lrun s0 (project b tr) = Some s /\ w_is_write_locked (lw s) = true) ->
  (forall b u, In (b, u) (held_after [] tr) -> In u ts) ->
  ts = [].
Proof.
  intros Hok Hi Hw Hh. destruct ts as [|t ts]; [reflexivity|exfalso].
  destruct (Hw t (or_introl eq_refl)) as (b & s0 & s & Hin & _ & Hr & Hl).
  destruct (locked_node_has_running_holder _ _ _ _ _ Hok Hi Hin Hr Hl) as (u & _ & Hu & Hns).
  destruct (Hw u (Hh _ _ Hu)) as (b' & _ & _ & _ & Hsp & _). exact (Hns b' Hsp).
Qed.
