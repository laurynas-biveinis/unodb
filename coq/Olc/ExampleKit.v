(** Concrete histories for the example files: finitely many tree states, each
    with a table of its reachable nodes and their paths.  That the table is
    closed under "child of" is a boolean evaluated on the concrete heap; tree
    shape, W2, lock discipline and W1 of the history then follow from checks
    on the table entries and from facts about consecutive states. *)
From Coq Require Import List ZArith Bool Arith Lia Sorted RelationClasses.
From Unodb Require Import Base.Lex Lock.LockModel Olc.ReadModel Olc.IterModel.
Import ListNotations.
Local Open Scope Z_scope.

Lemma find_child_In : forall b cs c, find_child b cs = Some c -> In (b, c) cs.
Proof.
  induction cs as [|[b0 c0] cs IH]; intros c Hf; cbn in Hf; [discriminate|].
  destruct (Z.eqb_spec b b0) as [->|Hne]; [injection Hf as ->; left; reflexivity | right; apply IH; exact Hf].
Qed.

Definition has_place (pl : list (nid * list Z)) (n : nid) (pth : list Z) : bool :=
  existsb (fun x => Nat.eqb (fst x) n && lex_eqb (snd x) pth) pl.

Lemma has_place_In : forall pl n pth, has_place pl n pth = true -> In (n, pth) pl.
Proof.
  intros pl n pth E. apply existsb_exists in E. destruct E as ([m q] & Hin & E). cbn in E.
  apply andb_prop in E. destruct E as [E1 E2]. apply Nat.eqb_eq in E1. subst m.
  unfold lex_eqb in E2. destruct (lex_compare q pth) eqn:C; try discriminate.
  apply lex_compare_eq in C. subst q. exact Hin.
Qed.

Definition places_ok (g : gstate) (pl : list (nid * list Z)) (ok : nid -> list Z -> cell -> bool) : bool :=
  forallb (fun x => match hp g (fst x) with Some c => ok (fst x) (snd x) c | None => true end) pl.

Definition closed (g : gstate) (pl : list (nid * list Z)) : bool :=
  match root g with Some r => has_place pl r [] | None => true end &&
  places_ok g pl (fun _ pth c => match cont c with
                                 | CInode p cs => forallb (fun bc => has_place pl (snd bc) (pth ++ p ++ [fst bc])) cs
                                 | CLeaf _ _ => true
                                 end).

Lemma places_ok_In : forall g pl ok n pth c, places_ok g pl ok = true -> In (n, pth) pl -> hp g n = Some c ->
  ok n pth c = true.
Proof.
  intros g pl ok n pth c P Hin Hc. unfold places_ok in P. rewrite forallb_forall in P.
  specialize (P _ Hin). cbn in P. rewrite Hc in P. exact P.
Qed.

Lemma closed_reach : forall g pl, closed g pl = true -> forall n pth, reach g n pth -> In (n, pth) pl.
Proof.
  intros g pl C n pth R. apply andb_prop in C. destruct C as [C0 C1].
  induction R as [n Hr | n pth c p cs b c' R IH Hc Hk Hf].
  - rewrite Hr in C0. apply has_place_In. exact C0.
  - pose proof (places_ok_In _ _ _ _ _ _ C1 IH Hc) as E. cbn in E. rewrite Hk in E.
    rewrite forallb_forall in E. apply has_place_In. exact (E _ (find_child_In _ _ _ Hf)).
Qed.

Lemma places_ok_reach : forall g pl ok, closed g pl = true -> places_ok g pl ok = true ->
  forall n pth c, reach g n pth -> hp g n = Some c -> ok n pth c = true.
Proof. intros g pl ok C P n pth c R Hc. exact (places_ok_In _ _ _ _ _ _ P (closed_reach g pl C n pth R) Hc). Qed.

Fixpoint descend (g : gstate) (n : nid) (pth : list Z) (bs : list Z) : option (nid * list Z) :=
  match bs with
  | [] => Some (n, pth)
  | b :: bs' =>
      match hp g n with
      | Some {| cont := CInode p cs |} =>
          match find_child b cs with Some c' => descend g c' (pth ++ p ++ [b]) bs' | None => None end
      | _ => None
      end
  end.

Lemma reach_by : forall g r bs m q, root g = Some r -> descend g r [] bs = Some (m, q) -> reach g m q.
Proof.
  intros g r bs m q Hr. assert (R : reach g r []) by (apply reach_root; exact Hr). clear Hr.
  revert R. generalize (@nil Z). revert r. induction bs as [|b bs IH]; intros n pth R D; cbn in D.
  - injection D as <- <-. exact R.
  - destruct (hp g n) as [[w [k v|p cs]]|] eqn:Hc; try discriminate.
    destruct (find_child b cs) as [c'|] eqn:Hf; [|discriminate].
    apply (IH _ _ (reach_child g n pth _ p cs b c' R Hc eq_refl Hf) D).
Qed.

Fixpoint incr (l : list Z) : bool :=
  match l with a :: (b :: _) as t => (a <? b) && incr t | _ => true end.

Lemma incr_sorted : forall l, incr l = true -> StronglySorted Z.lt l.
Proof.
  intros l E. apply Sorted_StronglySorted; [intros x y z; apply Z.lt_trans|].
  induction l as [|a l IH]; constructor.
  - apply IH. destruct l as [|b l]; [reflexivity|]. apply andb_prop in E. apply E.
  - destruct l as [|b l]; constructor. apply andb_prop in E. destruct E as [E _]. apply Z.ltb_lt. exact E.
Qed.

Definition shape_ok (_ : nid) (pth : list Z) (c : cell) : bool :=
  match cont c with CLeaf k _ => is_prefix pth k | CInode _ cs => incr (map fst cs) end.

Lemma shape_wf : forall g pl, closed g pl = true -> places_ok g pl shape_ok = true -> wf_state g.
Proof.
  intros g pl C P. split.
  - intros n pth c k v R Hc Hk. pose proof (places_ok_reach g pl _ C P n pth c R Hc) as E.
    unfold shape_ok in E. rewrite Hk in E. apply is_prefix_spec. exact E.
  - intros n pth c p cs R Hc Hk. pose proof (places_ok_reach g pl _ C P n pth c R Hc) as E.
    unfold shape_ok in E. rewrite Hk in E. apply incr_sorted. exact E.
Qed.

Definition fullpath_at (fp : nid -> list Z) (g : gstate) : Prop :=
  forall n pth c p cs, reach g n pth -> hp g n = Some c -> cont c = CInode p cs -> pth ++ p = fp n.

Definition fullpath_ok (fp : nid -> list Z) (n : nid) (pth : list Z) (c : cell) : bool :=
  match cont c with CInode p _ => lex_eqb (pth ++ p) (fp n) | CLeaf _ _ => true end.

Lemma fp_fullpath : forall fp g pl, closed g pl = true -> places_ok g pl (fullpath_ok fp) = true -> fullpath_at fp g.
Proof.
  intros fp g pl C P n pth c p cs R Hc Hk. pose proof (places_ok_reach g pl _ C P n pth c R Hc) as E.
  unfold fullpath_ok, lex_eqb in E. rewrite Hk in E. destruct (lex_compare (pth ++ p) (fp n)) eqn:Cm; try discriminate.
  apply lex_compare_eq. exact Cm.
Qed.

Definition not_key (k : key) (_ : nid) (_ : list Z) (c : cell) : bool :=
  match cont c with CLeaf k' _ => negb (lex_eqb k' k) | CInode _ _ => true end.

Lemma not_key_absent : forall k g pl, closed g pl = true -> places_ok g pl (not_key k) = true -> ~ has_key g k.
Proof.
  intros k g pl C P (v & n & pth & c & R & Hc & Hk). pose proof (places_ok_reach g pl _ C P n pth c R Hc) as E.
  unfold not_key, lex_eqb in E. rewrite Hk, lex_compare_refl in E. discriminate.
Qed.

Definition grows (g g' : gstate) : Prop :=
  root g' = root g /\
  forall n c p cs b c', hp g n = Some c -> cont c = CInode p cs -> find_child b cs = Some c' ->
    exists c1 cs1, hp g' n = Some c1 /\ cont c1 = CInode p cs1 /\ find_child b cs1 = Some c'.

Definition reach_le (g g' : gstate) : Prop := forall n pth, reach g n pth -> exists pth', reach g' n pth'.

Lemma reach_grows : forall g g', grows g g' -> forall n pth, reach g n pth -> reach g' n pth.
Proof.
  intros g g' [Gr G] n pth R. induction R as [n Hr | n pth c p cs b c' R IH Hc Hk Hf].
  - apply reach_root. congruence.
  - destruct (G _ _ _ _ _ _ Hc Hk Hf) as (c1 & cs1 & A & B & C). eapply reach_child; eassumption.
Qed.

Lemma grows_reach_le : forall g g', grows g g' -> reach_le g g'.
Proof. intros g g' G n pth R. exists pth. exact (reach_grows g g' G n pth R). Qed.

(** words only grow, so a word seen twice means no change in between ([phased_disciplined]) *)
Definition state_le (g g' : gstate) : Prop :=
  (forall n c, hp g n = Some c -> exists c', hp g' n = Some c' /\ (c' = c \/ word c < word c')) /\
  ((root g' = root g /\ root_word g' = root_word g) \/ root_word g < root_word g').

Global Instance reach_le_refl : Reflexive reach_le.
Proof. intros g n pth R. exists pth. exact R. Qed.

Global Instance reach_le_trans : Transitive reach_le.
Proof. intros a b c R1 R2 n pth R. destruct (R1 n pth R) as [q Rq]. exact (R2 n q Rq). Qed.

Global Instance state_le_refl : Reflexive state_le.
Proof. intros g. split; [intros n c Hc; exists c; auto | left; auto]. Qed.

Global Instance state_le_trans : Transitive state_le.
Proof.
  intros a b c [C1 R1] [C2 R2]. split.
  - intros n x Hx. destruct (C1 n x Hx) as (y & Hy & Ey). destruct (C2 n y Hy) as (z & Hz & Ez).
    exists z. split; [exact Hz|]. destruct Ey as [->|Ly]; destruct Ez as [->|Lz]; auto. right. lia.
  - destruct R1 as [[E1 W1]|L1]; destruct R2 as [[E2 W2]|L2]; [left; split; congruence | right; lia ..].
Qed.

(** [(th, g)]: state g until moment th (exclusive) *)
Fixpoint phased (l : list (nat * gstate)) (last : gstate) (t : nat) : gstate :=
  match l with [] => last | (th, g) :: l' => if (t <? th)%nat then g else phased l' last t end.

Definition states (l : list (nat * gstate)) (last : gstate) : list gstate := map snd l ++ [last].

Lemma phased_in : forall l last t, In (phased l last t) (states l last).
Proof.
  induction l as [|[th g] l IH]; intros last t; cbn -[Nat.ltb]; [auto|]. destruct (t <? th)%nat; [left; reflexivity | right; apply IH].
Qed.

Lemma phased_mono : forall (R : gstate -> gstate -> Prop), Reflexive R -> Transitive R ->
  forall l last, Sorted R (states l last) -> forall t t', (t <= t')%nat -> R (phased l last t) (phased l last t').
Proof.
  intros R Rr Rt l last S. apply Sorted_StronglySorted in S; [|exact Rt].
  induction l as [|[th g] l IH]; intros t t' Hle; cbn -[Nat.ltb] in *; [reflexivity|].
  inversion S as [|x y S' F]; subst.
  destruct (Nat.ltb_spec t th); destruct (Nat.ltb_spec t' th); try lia.
  - reflexivity.
  - rewrite Forall_forall in F. apply F. apply phased_in.
  - apply IH; assumption.
Qed.

Lemma sorted2 : forall (R : gstate -> gstate -> Prop) a b, R a b -> Sorted R [a; b].
Proof. intros R a b Rab. repeat constructor. exact Rab. Qed.

Lemma sorted3 : forall (R : gstate -> gstate -> Prop) a b c, R a b -> R b c -> Sorted R [a; b; c].
Proof. intros R a b c Rab Rbc. repeat constructor; assumption. Qed.

Section Phased.
Variables (l : list (nat * gstate)) (last : gstate).
Let H : history := phased l last.

Theorem phased_wf : (forall g, In g (states l last) -> wf_state g) -> wf_history H.
Proof. intros F t. apply F. apply phased_in. Qed.

Theorem phased_fullpath : forall fp, (forall g, In g (states l last) -> fullpath_at fp g) -> fullpath_stable H.
Proof. intros fp F. exists fp. intros t. apply F. apply phased_in. Qed.

Theorem phased_stays_reachable : Sorted reach_le (states l last) -> stays_reachable H.
Proof. intros S t t' n pth Hle R _. exact (phased_mono reach_le _ _ l last S t t' Hle n pth R). Qed.

Theorem phased_disciplined : Sorted state_le (states l last) -> disciplined H.
Proof.
  intros S. pose proof (phased_mono state_le _ _ l last S) as M. unfold H. split.
  - intros n t1 t2 c1 c2 Hle Hc1 Hc2 Hw _ t Ht.
    destruct (proj1 (M t1 t ltac:(lia)) n c1 Hc1) as (c & Hc & E).
    destruct (proj1 (M t t2 ltac:(lia)) n c Hc) as (c2' & Hc2' & E').
    rewrite Hc2 in Hc2'. injection Hc2' as <-.
    destruct E as [->|L]; [exact Hc|]. destruct E' as [->|L']; lia.
  - intros t1 t2 Hle Hw _ t Ht.
    destruct (proj2 (M t1 t ltac:(lia))) as [[E _]|L]; [exact E|].
    destruct (proj2 (M t t2 ltac:(lia))) as [[_ E']|L']; lia.
Qed.

End Phased.

(** the goals for nodes 0 .. N-1, and for all further ones, by [tac] *)
Tactic Notation "each_node" integer(N) ident(n) tactic(tac) := do N (destruct n as [|n]; [tac|]); tac.

(** [state_le], first part, at one node *)
Ltac cell_le Hc :=
  cbn in Hc |- *;
  first [discriminate Hc
        | injection Hc as <-; eexists; split; [reflexivity|]; cbn; first [left; reflexivity | right; lia]].

(** [grows], second part, at one node *)
Ltac edge_stays Hc Hk Hf :=
  cbn in Hc;
  first [discriminate Hc
        | injection Hc as <-; cbn in Hk;
          first [discriminate Hk
                | injection Hk as <- <-; eexists; eexists; split; [reflexivity | split; [reflexivity|]];
                  apply find_child_In in Hf; cbn in Hf;
                  repeat (destruct Hf as [Hf|Hf]; [injection Hf as <- <-; reflexivity|]); destruct Hf]].

(** a cell read off the concrete heap; a hop whose observations are what the history shows *)
Ltac cell_now := eexists; repeat split; reflexivity.
Ltac hop_now := unfold hop_observed; cbn; split; [lia | split; [reflexivity | split; cell_now]].
