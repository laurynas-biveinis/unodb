(** C03 (writer side, fine-grained): the operational model of Olc/FineWrite.v
    can run -- on the tree ex_g2 of Olc/WriteExample.v (inner node 1 with
    prefix [1] over the leaves 0 and 2) writer A inserts [1;4] in three
    phases: it builds the private leaf 3, write-locks node 1, stores the new
    children, passes its commit point (add_leaf), unlocks node 1.  At the same
    time writer B write-locks leaf 0 and releases it unchanged (a version
    bump); B locks after A and unlocks after A, its commit point comes first.
    One reader completes before the locked period, one after it. *)
From Coq Require Import List ZArith Bool Arith Lia.
From Unodb Require Import Lock.LockModel Olc.ReadModel Olc.ReadProofs Olc.WriteModel Olc.WriteShapes Olc.WriteProofs Olc.WriteExample Olc.FineWrite Olc.FineWriteProofs.
Import ListNotations.
Local Open Scope Z_scope.

Lemma ex_g2_init_ok : init_ok ex_g2.
Proof.
  assert (I0 : init_ok ex_g0) by (apply init_ok_empty; reflexivity).
  assert (I1 : init_ok ex_g1).
  { apply (step_ok_init_ok _ _ I0). apply (ins_commit_ok _ _ _ _ (proj1 I0) ex_step1). }
  apply (step_ok_init_ok _ _ I1). apply (ins_commit_ok _ _ _ _ (proj1 I1) ex_step2).
Qed.

Definition fx_k : key := [1; 4].
Definition fx_v : val := [30].
Definition fx_cs : list (Z * nid) := (4, 3%nat) :: ex_csX.
Definition fx_wA : wid := 7%nat.
Definition fx_wB : wid := 8%nat.
Definition fx_leaf3 : cell := mk 0 (CLeaf fx_k fx_v).

Definition fx_s1 : gstate := set_hp ex_g2 (upd (hp ex_g2) 3%nat fx_leaf3).
Definition fx_s2 : gstate := set_hp fx_s1 (upd (hp fx_s1) 1%nat (mk (0 + 2) (CInode [1] ex_csX))).
Definition fx_s3 : gstate := set_hp fx_s2 (upd (hp fx_s2) 0%nat (mk (0 + 2) (CLeaf ex_k1 ex_v1))).
Definition fx_s4 : gstate := set_hp fx_s3 (upd (hp fx_s3) 1%nat (mk (0 + 2) (CInode [1] fx_cs))).
Definition fx_s7 : gstate := set_hp fx_s4 (upd (hp fx_s4) 1%nat (mk (bump 0) (CInode [1] fx_cs))).
Definition fx_s8 : gstate := set_hp fx_s7 (upd (hp fx_s7) 0%nat (mk (bump 0) (CLeaf ex_k1 ex_v1))).

(** the views: after B's commit point (a bump of leaf 0), after A's (add_leaf) *)
Definition fx_vB : gstate := set_hp ex_g2 (upd (hp ex_g2) 0%nat (mk (bump 0) (CLeaf ex_k1 ex_v1))).
Definition fx_vAB : gstate :=
  set_hp fx_vB (upd (upd (hp fx_vB) 3%nat fx_leaf3) 1%nat (mk (bump 0) (CInode [1] fx_cs))).

Definition fx_o0 : ghost := {| owner := fun _ => None; rowner := None; view := ex_g2 |}.
Definition fx_o2 : ghost := set_owner fx_o0 1%nat (Some fx_wA).
Definition fx_o3 : ghost := set_owner fx_o2 0%nat (Some fx_wB).
Definition fx_o5 : ghost := set_view fx_o3 fx_vB.
Definition fx_o6 : ghost := set_view fx_o5 fx_vAB.
Definition fx_o7 : ghost := set_owner fx_o6 1%nat None.
Definition fx_o8 : ghost := set_owner fx_o7 0%nat None.

Definition fx_H : history := fun t =>
  match t with
  | 0%nat => ex_g2 | 1%nat => fx_s1 | 2%nat => fx_s2 | 3%nat => fx_s3 | 4%nat => fx_s4
  | 5%nat => fx_s4 | 6%nat => fx_s4 | 7%nat => fx_s7 | _ => fx_s8
  end.
Definition fx_G : nat -> ghost := fun t =>
  match t with
  | 0%nat => fx_o0 | 1%nat => fx_o0 | 2%nat => fx_o2 | 3%nat => fx_o3 | 4%nat => fx_o3
  | 5%nat => fx_o5 | 6%nat => fx_o6 | 7%nat => fx_o7 | _ => fx_o8
  end.

Lemma fx_commitB : bump_node 0%nat ex_g2 fx_vB.
Proof. exists (mk 0 (CLeaf ex_k1 ex_v1)). repeat split. Qed.

Lemma fx_coversB : covers fx_s4 fx_o3 fx_wB fx_vB.
Proof.
  split; [|left; split; reflexivity].
  intros n. destruct (Nat.eq_dec n 0) as [->|H0]; [right; left; reflexivity|].
  left. cbn [hp set_hp fx_vB fx_o3 fx_o2 set_owner view fx_o0]. rewrite !upd_neq by assumption. reflexivity.
Qed.

Lemma fx_commitA : commit fx_k fx_vB fx_vAB.
Proof.
  left. exists fx_v. apply ic_add_leaf.
  eapply add_leaf_intro with (N := 1%nat) (d := 0%nat) (cN := mk 0 (CInode [1] ex_csX)) (p := [1]) (cs := ex_csX)
    (b := 4) (L := 3%nat) (wl := 0) (cs' := fx_cs); try reflexivity.
  - repeat split; try reflexivity; [apply reach_root; reflexivity | cbn; lia].
  - intros b'. reflexivity.
Qed.

Lemma fx_coversA : covers fx_s4 fx_o5 fx_wA fx_vAB.
Proof.
  split; [|left; split; reflexivity].
  intros n. destruct (Nat.eq_dec n 1) as [->|H1]; [right; left; reflexivity|].
  destruct (Nat.eq_dec n 3) as [->|H3]; [right; right; repeat split; reflexivity|].
  left. cbn [hp set_hp fx_vAB fx_o5 fx_o3 fx_o2 set_owner set_view view fx_o0]. rewrite !upd_neq by assumption. reflexivity.
Qed.

Theorem fx_fine_run : fine_run fx_H fx_G.
Proof.
  split.
  - split; [exact ex_g2_init_ok | repeat split].
  - intros t. destruct t as [|[|[|[|[|[|[|[|t]]]]]]]]; cbn [fx_H fx_G].
    + apply fs_private with (n := 3%nat) (c := fx_leaf3); reflexivity.
    + apply fs_lock with (w := fx_wA) (n := 1%nat) (c := mk 0 (CInode [1] ex_csX)); try reflexivity. discriminate.
    + apply fs_lock with (w := fx_wB) (n := 0%nat) (c := mk 0 (CLeaf ex_k1 ex_v1)); try reflexivity. discriminate.
    + apply fs_store with (w := fx_wA) (n := 1%nat) (c := mk (0 + 2) (CInode [1] ex_csX)) (ct := CInode [1] fx_cs); reflexivity.
    + apply fs_commit with (w := fx_wB) (v' := fx_vB); try reflexivity; [|exact fx_coversB].
      eapply vs_bump. exact fx_commitB.
    + apply fs_commit with (w := fx_wA) (v' := fx_vAB); try reflexivity; [|exact fx_coversA].
      eapply vs_commit. exact fx_commitA.
    + apply fs_unlock with (w := fx_wA) (n := 1%nat) (c := mk (0 + 2) (CInode [1] fx_cs)) (cv := mk (bump 0) (CInode [1] fx_cs));
        try reflexivity. left. reflexivity.
    + apply fs_unlock with (w := fx_wB) (n := 0%nat) (c := mk (0 + 2) (CLeaf ex_k1 ex_v1)) (cv := mk (bump 0) (CLeaf ex_k1 ex_v1));
        try reflexivity. left. reflexivity.
    + apply fs_stutter; reflexivity.
Qed.

Lemma fx_two_in_flight : owner (fx_G 4%nat) 1%nat = Some fx_wA /\ owner (fx_G 4%nat) 0%nat = Some fx_wB.
Proof. split; reflexivity. Qed.

(** the heap is not the tree of any view: at moment 4 node 1 is write-locked
    and already shows the new slot while the view is still the old tree *)
Lemma fx_locked : exists c, hp (fx_H 4%nat) 1%nat = Some c /\ w_is_free (word c) = false /\
  cont c = CInode [1] fx_cs /\ commit_view fx_G 4%nat = ex_g2.
Proof. eexists. repeat split; reflexivity. Qed.

(** reader A: try_get [1;4] with all its sections in [0, 1], before node 1 is locked: not found *)
Definition fx_runA : run :=
  {| r_lock := 0; r_word := 8; r_check := 1; r_ptr := Some 1%nat;
     r_hops := [ {| h_node := 1%nat; h_lock := 0; h_check := 1; h_word := 0; h_cont := CInode [1] ex_csX |} ] |}.

Lemma fx_validA : valid_run fx_H fx_k fx_runA None.
Proof.
  unfold valid_run. cbn [fx_runA r_lock r_check r_word r_ptr r_hops].
  repeat split; try reflexivity; try lia.
  eexists _, _. repeat split. apply ho_last.
  - repeat split; cbn; try lia; eexists; repeat split; reflexivity.
  - cbn. lia.
  - apply st_nochild; reflexivity.
Qed.

(** reader B: try_get [1;4] with all its sections in [7, 9], after node 1 is unlocked
    (leaf 0 is still locked by writer B at moment 7: it is not on the path): found *)
Definition fx_runB : run :=
  {| r_lock := 7; r_word := 8; r_check := 7; r_ptr := Some 1%nat;
     r_hops := [ {| h_node := 1%nat; h_lock := 7; h_check := 9; h_word := 4; h_cont := CInode [1] fx_cs |};
                 {| h_node := 3%nat; h_lock := 8; h_check := 9; h_word := 0; h_cont := CLeaf fx_k fx_v |} ] |}.

Lemma fx_validB : valid_run fx_H fx_k fx_runB (Some fx_v).
Proof.
  unfold valid_run. cbn [fx_runB r_lock r_check r_word r_ptr r_hops].
  repeat split; try reflexivity; try lia.
  eexists _, _. repeat split. eapply ho_step with (p := [1]) (cs := fx_cs); try reflexivity.
  - repeat split; cbn; try lia; eexists; repeat split; reflexivity.
  - cbn. lia.
  - apply ho_last.
    + repeat split; cbn; try lia; eexists; repeat split; reflexivity.
    + cbn. lia.
    + apply st_hit.
Qed.

(** no validated section of node 1 can straddle the locked period: a section
    that opens before the lock (word 0) closes before it *)
Lemma fx_no_straddle : forall a, hop_observed fx_H a -> h_node a = 1%nat -> (h_lock a <= 1)%nat -> (h_check a <= 1)%nat.
Proof.
  intros a (Hle & Hf & (c1 & Hc1 & Hw1 & _) & (c2 & Hc2 & Hw2)) En Hl. rewrite En in *.
  assert (E0 : h_word a = 0).
  { destruct (h_lock a) as [|[|l]]; [| |lia]; cbn in Hc1; injection Hc1 as <-; symmetry; exact Hw1. }
  destruct (h_check a) as [|[|[|[|[|[|[|[|[|u]]]]]]]]]; try lia; cbn in Hc2; injection Hc2 as <-; rewrite E0 in Hw2; discriminate.
Qed.

Lemma fx_readers_linearizable :
  (exists T, (0 <= T <= 1)%nat /\ lookup (commit_view fx_G T) fx_k None) /\
  (exists T, (7 <= T <= 9)%nat /\ lookup (commit_view fx_G T) fx_k (Some fx_v)).
Proof.
  split.
  - exact (fine_reader_linearizable fx_H fx_G fx_k fx_runA None fx_fine_run fx_validA).
  - exact (fine_reader_linearizable fx_H fx_G fx_k fx_runB (Some fx_v) fx_fine_run fx_validB).
Qed.
Print Assumptions fx_readers_linearizable.
