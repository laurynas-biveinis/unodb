(** C03 (writer side, fine-grained): proofs for Olc/FineWrite.v.  Version
    bumps are good steps, so the view of a fine run is a history of good
    steps, to which the reader theorem applies; a validated run of a history
    that agrees with the view on free words is a validated run of the view
    (same moments, same observations); the invariant of the operational model
    says that the heap agrees with the view; the writer's own descent
    establishes the premises of its commit shape in the view. *)
From Coq Require Import List ZArith Bool Arith Lia.
From Unodb Require Import Lock.LockModel Olc.ReadModel Olc.ReadProofs Olc.WriteModel Olc.WriteShapes Olc.WriteProofs Olc.FineWrite.
Import ListNotations.
Local Open Scope Z_scope.
Local Open Scope nat_scope.

Lemma generated_stepwise : forall H, generated H -> stepwise H.
Proof. exact generated_steps_ok. Qed.

Definition same_conts (g g' : gstate) : Prop :=
  root g' = root g /\ forall n, option_map cont (hp g' n) = option_map cont (hp g n).

Lemma same_conts_sym : forall g g', same_conts g g' -> same_conts g' g.
Proof. intros g g' [R C]. split; [congruence | intros n; symmetry; apply C]. Qed.

Lemma same_conts_cell : forall g g' n c, same_conts g g' -> hp g n = Some c ->
  exists c', hp g' n = Some c' /\ cont c' = cont c.
Proof.
  intros g g' n c [_ C] Hc. specialize (C n). rewrite Hc in C. cbn in C.
  destruct (hp g' n) as [c'|]; [|discriminate]. cbn in C. injection C as E. eauto.
Qed.

Lemma same_conts_child : forall g g' n p b m, same_conts g g' -> child (hp g) n p b m -> child (hp g') n p b m.
Proof.
  intros g g' n p b m S (c & cs & Hc & Hk & Hf). destruct (same_conts_cell g g' n c S Hc) as (c2 & Hc2 & Ek).
  exists c2, cs. rewrite Ek. auto.
Qed.

Lemma same_conts_reach : forall g g' n q, same_conts g g' -> reach g n q -> reach g' n q.
Proof.
  intros g g' n q S Hr. revert n q Hr. apply reach_child_ind.
  - intros n Hroot. apply reach_root. destruct S as [R _]. congruence.
  - intros n q p b m _ IH Hc. eapply reach_step; [exact IH | eapply same_conts_child; eassumption].
Qed.

(** S: any set that holds the start of the lookup and is closed under steps *)
Lemma lookup_rel_ext : forall (h h' : heap) k (S : nid -> Prop),
  (forall n c, S n -> h n = Some c -> exists c', h' n = Some c' /\ cont c' = cont c) ->
  (forall n p b m, S n -> child h n p b m -> S m) ->
  forall n d r, lookup_rel h k n d r -> S n -> lookup_rel h' k n d r.
Proof.
  intros h h' k S Hcell Hstep n d r Hl.
  induction Hl as [n d c v Hc Hk | n d c k' v Hc Hk Hne | n d c p cs Hc Hk Hnp
                  | n d c p cs Hc Hk Hp Hn | n d c p cs c' r Hc Hk Hp Hn Hl IH]; intros HS;
    destruct (Hcell n c HS Hc) as (c2 & Hc2 & Ek); rewrite <- Ek in Hk.
  - eapply lr_leaf_hit; eassumption.
  - eapply lr_leaf_miss; eassumption.
  - eapply lr_prefix_miss; eassumption.
  - eapply lr_no_child; eassumption.
  - eapply lr_step; try eassumption. apply IH. pose proof Hn as Hn'. unfold next_child in Hn'.
    destruct (nth_error k (d + length p)) as [b|]; [|discriminate].
    apply (Hstep n p b c' HS). rewrite Ek in Hk. eapply child_intro; eassumption.
Qed.

Lemma same_conts_lookup : forall g g' k r, same_conts g g' -> (lookup g' k r <-> lookup g k r).
Proof.
  intros g g' k r S. pose proof (same_conts_sym g g' S) as S'. unfold lookup.
  pose proof S as [R _]. rewrite R. destruct (root g) as [n|]; [|tauto].
  split; intros Hl; (eapply lookup_rel_ext with (S := fun _ => True); [| | exact Hl |]; auto);
    intros m c _; apply same_conts_cell; assumption.
Qed.

Lemma same_conts_edge : forall g g' n b m, same_conts g g' -> edge g n b m -> edge g' n b m.
Proof.
  intros g g' n b m S E. apply edge_child in E. destruct E as (q & p & Hr & Hc).
  eapply edge_of_child; [eapply same_conts_reach | eapply same_conts_child]; eassumption.
Qed.

Definition bump_like (g g' : gstate) : Prop :=
  same_conts g g' /\ root_step g g' /\
  forall n c, hp g n = Some c -> exists c', hp g' n = Some c' /\
    (c' = c \/ (w_is_free (word c) = true /\ word c' = bump (word c))).

Lemma bump_like_step_ok : forall g g', WF g -> bump_like g g' -> step_ok g g'.
Proof.
  intros g g' W (S & R & B). pose proof (same_conts_sym g g' S) as S'.
  split; [|split; [|split; [exact R | split]]].
  - constructor.
    + intros n pth Hr. apply (same_conts_reach g' g _ _ S') in Hr.
      destruct (wf_alloc g W _ _ Hr) as (c & Hc & Hf).
      destruct (B n c Hc) as (c' & Hc' & [-> | [_ E]]); [eauto|].
      exists c'. split; [exact Hc'|]. rewrite E. apply bump_free. exact Hf.
    + intros n pth c kk v Hr Hc Hk. apply (same_conts_reach g' g _ _ S') in Hr.
      destruct (same_conts_cell g' g n c S' Hc) as (c0 & Hc0 & Ek).
      eapply (wf_leaf g W); [exact Hr | exact Hc0 | rewrite Ek; exact Hk].
    + intros n1 b1 n2 b2 m E1 E2. eapply (wf_parent g W); eapply same_conts_edge; eassumption.
    + intros r n b Hroot E. destruct S as [Er _]. eapply (wf_root g W); [rewrite <- Er; exact Hroot|].
      eapply same_conts_edge; eassumption.
  - intros n c Hc. destruct (B n c Hc) as (c' & Hc' & [-> | [Hf E]]); [eauto|].
    exists c'. split; [exact Hc'|]. right. split; [exact Hf | left; exact E].
  - intros n pth Hr _. exists pth. eapply same_conts_reach; eassumption.
  - intros fp Hfp. exists fp. split; [|reflexivity].
    intros n pth c p cs Hr Hc Hk. apply (same_conts_reach g' g _ _ S') in Hr.
    destruct (same_conts_cell g' g n c S' Hc) as (c0 & Hc0 & Ek).
    eapply Hfp; [exact Hr | exact Hc0 | rewrite Ek; exact Hk].
Qed.

Lemma bump_node_like : forall n g g', bump_node n g g' -> bump_like g g'.
Proof.
  intros n g g' (c & Hc & Hf & ->). split; [split|split].
  - reflexivity.
  - intros m. cbn [hp set_hp]. destruct (Nat.eq_dec m n) as [->|Hne].
    + rewrite upd_eq, Hc. reflexivity.
    + rewrite upd_neq by exact Hne. reflexivity.
  - left. split; reflexivity.
  - intros m cm Hm. cbn [hp set_hp]. destruct (Nat.eq_dec m n) as [->|Hne].
    + rewrite upd_eq. eexists. split; [reflexivity|]. right.
      rewrite Hc in Hm. injection Hm as <-. split; [exact Hf | reflexivity].
    + rewrite upd_neq by exact Hne. eauto.
Qed.

Lemma bump_root_like : forall g g', bump_root g g' -> bump_like g g'.
Proof.
  intros g g' ->. split; [split|split]; cbn.
  - reflexivity.
  - reflexivity.
  - right. reflexivity.
  - intros n c Hc. eauto.
Qed.

Lemma view_step_ok : forall g g', WF g -> view_step g g' -> step_ok g g'.
Proof.
  intros g g' W [k Hc | n Hb | Hb].
  - eapply commit_step_ok; eassumption.
  - apply bump_like_step_ok; [exact W | eapply bump_node_like; exact Hb].
  - apply bump_like_step_ok; [exact W | apply bump_root_like; exact Hb].
Qed.

Lemma view_generated_stepwise : forall V, view_generated V -> stepwise V.
Proof.
  intros V [I Hs]. apply stepwise_intro; [exact I|]. intros t W.
  destruct (Hs t) as [E | Hv]; [left; exact E | right; exact (view_step_ok _ _ W Hv)].
Qed.

Lemma generated_view_generated : forall V, generated V -> view_generated V.
Proof.
  intros V [I Hs]. split; [exact I|]. intros t.
  destruct (Hs t) as [E | [k Hc]]; [left; exact E | right; eapply vs_commit; exact Hc].
Qed.

Theorem view_map_steps : forall V, view_generated V -> forall t,
  (forall k r, lookup (V (S t)) k r <-> lookup (V t) k r) \/
  (exists k v, insert_effect k v (V t) (V (S t))) \/
  (exists k, remove_effect k (V t) (V (S t))).
Proof.
  intros V G t. pose proof (stepwise_WF V (view_generated_stepwise V G) t) as W. destruct G as [_ Hs].
  destruct (Hs t) as [E | [k [[v Hc] | Hc] | n Hb | Hb]].
  - left. rewrite E. tauto.
  - right; left. exists k, v. apply (ins_commit_ok k v _ _ W Hc).
  - right; right. exists k. apply (rem_commit_ok k _ _ W Hc).
  - left. intros k r. apply same_conts_lookup. apply (bump_node_like n _ _ Hb).
  - left. intros k r. apply same_conts_lookup. apply (bump_root_like _ _ Hb).
Qed.

Section Transfer.
  Variables H V : history.
  Hypothesis SV : stepwise V.
  Hypothesis AG : agree H V.

  Lemma hop_transfer : forall a pth, hop_observed H a -> reach (V (h_lock a)) (h_node a) pth ->
    hop_observed V a.
  Proof.
    intros a pth (Hle & Hf & (c1 & Hc1 & Hw1 & Hk1) & (c2 & Hc2 & Hw2)) Hr.
    destruct AG as [A _].
    destruct (wf_alloc _ (stepwise_WF V SV (h_lock a)) _ _ Hr) as (cv & Hcv & _).
    destruct (A _ _ _ Hcv) as (ch & Hch & Eh). rewrite Hc1 in Hch. injection Hch as <-.
    rewrite Hw1 in Eh. specialize (Eh Hf). subst cv.
    destruct (alloc_later V (stepwise_cell_step V SV) _ _ _ _ Hle Hcv) as (cv2 & Hcv2).
    destruct (A _ _ _ Hcv2) as (ch & Hch & Eh). rewrite Hc2 in Hch. injection Hch as <-.
    rewrite Hw2 in Eh. specialize (Eh Hf). subst cv2.
    repeat split; [exact Hle | exact Hf | exists c1; auto | exists c2; auto].
  Qed.

  Lemma child_in_view : forall a pth p cs d k m t, hop_observed V a -> reach (V (h_lock a)) (h_node a) pth ->
    h_cont a = CInode p cs -> next_child p cs d k = Some m -> h_lock a <= t <= h_check a ->
    exists q, reach (V t) m q.
  Proof.
    intros a pth p cs d k m t Ho Hr Hk Hn Ht.
    pose proof (stepwise_disciplined V SV) as D. pose proof (stepwise_stays_reachable V SV) as S.
    destruct (section_reach V a pth D S Ho Hr t Ht) as [pth' Hr'].
    destruct (section_cell V a D Ho t Ht) as (c & Hc & _ & Ec).
    unfold next_child in Hn. destruct (nth_error k (d + length p)) as [b|]; [|discriminate].
    exists (pth' ++ p ++ [b]). eapply reach_child; [exact Hr' | exact Hc | rewrite Ec; exact Hk | exact Hn].
  Qed.

  Lemma hops_transfer : forall k d tl tc l r, hops_ok H k d tl tc l r ->
    match l with a :: _ => exists pth, reach (V (h_lock a)) (h_node a) pth | [] => True end ->
    hops_ok V k d tl tc l r.
  Proof.
    intros k d tl tc l r Hok.
    induction Hok as [d tl tc a r Ho Hin Hst | d tl tc a b rest p cs r Ho Hin Hk Hp Hn Hok IH]; intros [pth Hr].
    - apply ho_last; [eapply hop_transfer; eassumption | exact Hin | exact Hst].
    - pose proof (hop_transfer a pth Ho Hr) as Ho'.
      eapply ho_step; try eassumption. apply IH.
      destruct (hops_ok_head _ _ _ _ _ _ _ _ Hok) as [_ Hb].
      eapply child_in_view; eassumption.
  Qed.

  Theorem run_transfer : forall k rn r, valid_run H k rn r -> valid_run V k rn r.
  Proof.
    intros k rn r (Hle & Hf & W1 & W2 & Hroot & M). destruct AG as [_ A].
    assert (F1 : w_is_free (root_word (H (r_lock rn))) = true) by (rewrite W1; exact Hf).
    assert (F2 : w_is_free (root_word (H (r_check rn))) = true) by (rewrite W2; exact Hf).
    destruct (A _ F1) as [E1 R1]. destruct (A _ F2) as [E2 _].
    unfold valid_run. repeat (split; [congruence|]).
    destruct (r_ptr rn) as [n|]; [|exact M].
    destruct M as (a & rest & Eh & En & Hok). exists a, rest. split; [exact Eh | split; [exact En|]].
    apply hops_transfer; [exact Hok|]. exists [].
    destruct (hops_ok_head _ _ _ _ _ _ _ _ Hok) as [_ Ha].
    apply reach_root. rewrite En.
    rewrite (root_section V (r_lock rn) (r_check rn) (stepwise_disciplined V SV) Hle) by (try lia; congruence).
    congruence.
  Qed.

  Theorem agree_reader_linearizable : forall k rn r, valid_run H k rn r ->
    exists T, r_lock rn <= T <= last_moment rn /\ lookup (V T) k r.
  Proof. intros k rn r Hv. apply stepwise_reader_linearizable; [exact SV | apply run_transfer; exact Hv]. Qed.
End Transfer.

Lemma locked_not_free : forall x, w_is_free x = true -> w_is_free (x + 2) = false.
Proof.
  unfold w_is_free. intros x Hf. apply Z.eqb_eq in Hf. apply Z.eqb_neq.
  rewrite Z.add_mod by lia. rewrite Hf. cbn. lia.
Qed.

Lemma unlocked_free : forall x, w_is_free x = true -> w_is_free (x + 2 + 2) = true.
Proof. intros x Hf. replace (x + 2 + 2)%Z with (bump x) by (unfold bump; lia). apply bump_free. exact Hf. Qed.

Lemma set_owner_eq : forall o n x, owner (set_owner o n x) n = x.
Proof. intros o n x. cbn. rewrite Nat.eqb_refl. reflexivity. Qed.

Lemma set_owner_neq : forall o n x m, m <> n -> owner (set_owner o n x) m = owner o m.
Proof. intros o n x m Hne. cbn. destruct (Nat.eqb_spec m n); [contradiction | reflexivity]. Qed.

Record Inv (g : gstate) (o : ghost) : Prop := {
  (* held by nobody, a node of the view has the view's cell, or is dead in both *)
  inv_cell : forall n cv, hp (view o) n = Some cv -> exists ch, hp g n = Some ch /\
      (owner o n = None -> ch = cv \/ (word ch = 1%Z /\ word cv = 1%Z));
  inv_held : forall n w, owner o n = Some w -> exists ch x, hp g n = Some ch /\
      w_is_free x = true /\ word ch = (x + 2)%Z;
  inv_root : rowner o = None -> root_word g = root_word (view o) /\ root g = root (view o);
  inv_rheld : forall w, rowner o = Some w -> exists x, w_is_free x = true /\ root_word g = (x + 2)%Z
}.

Lemma init_inv : forall g o, fine_init g o -> Inv g o.
Proof.
  intros g o (_ & -> & On & Or). constructor.
  - intros n cv Hc. exists cv. auto.
  - intros n w Hw. rewrite On in Hw. discriminate.
  - auto.
  - intros w Hw. rewrite Or in Hw. discriminate.
Qed.

(** the invariant gives the agreement of Level A *)
Lemma inv_agree_cell : forall g o n cv, Inv g o -> hp (view o) n = Some cv ->
  exists ch, hp g n = Some ch /\ (w_is_free (word ch) = true -> ch = cv).
Proof.
  intros g o n cv I Hc. destruct (inv_cell g o I n cv Hc) as (ch & Hch & E). exists ch. split; [exact Hch|].
  intros Hf. destruct (owner o n) as [w|] eqn:Ho.
  - destruct (inv_held g o I n w Ho) as (ch' & x & Hch' & Hx & Ew). rewrite Hch in Hch'. injection Hch' as <-.
    rewrite Ew, (locked_not_free x Hx) in Hf. discriminate.
  - destruct (E eq_refl) as [-> | [E1 _]]; [reflexivity|]. rewrite E1 in Hf. discriminate.
Qed.

Lemma inv_agree_root : forall g o, Inv g o -> w_is_free (root_word g) = true ->
  root_word (view o) = root_word g /\ root (view o) = root g.
Proof.
  intros g o I Hf. destruct (rowner o) as [w|] eqn:Ho.
  - destruct (inv_rheld g o I w Ho) as (x & Hx & Ew). rewrite Ew, (locked_not_free x Hx) in Hf. discriminate.
  - destruct (inv_root g o I Ho). split; congruence.
Qed.

Lemma inv_node : forall g o o' n c',
  Inv g o -> view o' = view o -> rowner o' = rowner o ->
  (forall m, m <> n -> owner o' m = owner o m) ->
  (forall cv, hp (view o) n = Some cv -> owner o' n = None -> c' = cv \/ (word c' = 1%Z /\ word cv = 1%Z)) ->
  (forall w, owner o' n = Some w -> exists x, w_is_free x = true /\ word c' = (x + 2)%Z) ->
  Inv (set_hp g (upd (hp g) n c')) o'.
Proof.
  intros g o o' n c' I Ev Er Eo Hcell Hheld. constructor.
  - intros m cv Hc. rewrite Ev in Hc. cbn [hp set_hp]. destruct (Nat.eq_dec m n) as [->|Hne].
    + rewrite upd_eq. exists c'. split; [reflexivity|]. apply Hcell. exact Hc.
    + rewrite upd_neq by exact Hne. rewrite (Eo m Hne). apply (inv_cell g o I). exact Hc.
  - intros m w Hw. cbn [hp set_hp]. destruct (Nat.eq_dec m n) as [->|Hne].
    + rewrite upd_eq. destruct (Hheld w Hw) as (x & Hx & Ex). exists c', x. auto.
    + rewrite upd_neq by exact Hne. rewrite (Eo m Hne) in Hw. apply (inv_held g o I m w Hw).
  - rewrite Er, Ev. apply (inv_root g o I).
  - intros w. rewrite Er. apply (inv_rheld g o I).
Qed.

Lemma inv_rootpart : forall g o g' o',
  Inv g o -> hp g' = hp g -> view o' = view o -> owner o' = owner o ->
  (rowner o' = None -> root_word g' = root_word (view o) /\ root g' = root (view o)) ->
  (forall w, rowner o' = Some w -> exists x, w_is_free x = true /\ root_word g' = (x + 2)%Z) ->
  Inv g' o'.
Proof.
  intros g o g' o' I Eh Ev Eo Hr Hh. constructor.
  - intros n cv. rewrite Ev, Eh, Eo. apply (inv_cell g o I).
  - intros n w. rewrite Eh, Eo. apply (inv_held g o I).
  - rewrite Ev. exact Hr.
  - exact Hh.
Qed.

Lemma inv_commit : forall g o w v', Inv g o -> covers g o w v' -> Inv g (set_view o v').
Proof.
  intros g o w v' I [Cn Cr]. constructor; cbn [view owner rowner set_view].
  - intros n cv Hc. destruct (Cn n) as [E | [Ow | (Hnone & On & Eg)]].
    + rewrite E in Hc. apply (inv_cell g o I). exact Hc.
    + destruct (inv_held g o I n w Ow) as (ch & x & Hch & _). exists ch. split; [exact Hch|].
      intros On. rewrite On in Ow. discriminate.
    + exists cv. split; [congruence | auto].
  - apply (inv_held g o I).
  - intros Or. destruct Cr as [[E1 E2] | Ow]; [|rewrite Or in Ow; discriminate].
    rewrite E1, E2. apply (inv_root g o I Or).
  - apply (inv_rheld g o I).
Qed.

Lemma fine_step_inv : forall g o g' o', Inv g o -> fine_step g o g' o' -> Inv g' o'.
Proof.
  intros g o g' o' I St.
  destruct St as [-> -> | w n c Hc Hf On Hpub -> -> | w n c ct Hc Ow -> -> | n c Hnone On -> ->
                 | n c ct Hc Hw On -> -> | w Hf Or -> -> | w r Ow -> -> | w v' Hv Hcov -> ->
                 | w n c cv Hc Ow Hcv Ek Ew -> -> | w Ow Er Ew -> ->].
  - exact I.
  - (* lock *)
    apply (inv_node g o); try reflexivity; [exact I | apply set_owner_neq | |].
    + intros cv _. rewrite set_owner_eq. discriminate.
    + intros w' _. exists (word c). auto.
  - (* store under the lock *)
    apply (inv_node g o); try reflexivity; [exact I | |].
    + intros cv _ On. rewrite On in Ow. discriminate.
    + intros w' _. destruct (inv_held g o I n w Ow) as (ch & x & Hch & Hx & Ex).
      rewrite Hc in Hch. injection Hch as <-. exists x. auto.
  - (* private *)
    apply (inv_node g o); try reflexivity; [exact I | |].
    + intros cv Hcv. rewrite Hnone in Hcv. discriminate.
    + intros w' Ow. rewrite On in Ow. discriminate.
  - (* dead *)
    apply (inv_node g o); try reflexivity; [exact I | |].
    + intros cv Hcv _. right. split; [reflexivity|].
      destruct (inv_cell g o I n cv Hcv) as (ch & Hch & E). rewrite Hc in Hch. injection Hch as <-.
      destruct (E On) as [<- | [_ E1]]; assumption.
    + intros w' Ow. rewrite On in Ow. discriminate.
  - (* lock root *)
    apply (inv_rootpart g o); try reflexivity; [exact I | |]; cbn.
    + discriminate.
    + intros w' _. exists (root_word g). auto.
  - (* store root *)
    apply (inv_rootpart g o); try reflexivity; [exact I | |]; cbn.
    + intros Or. rewrite Or in Ow. discriminate.
    + apply (inv_rheld g o I).
  - (* commit point *)
    eapply inv_commit; eassumption.
  - (* unlock *)
    apply (inv_node g o); try reflexivity; [exact I | apply set_owner_neq | |].
    + intros cv' Hcv' _. left. congruence.
    + intros w'. rewrite set_owner_eq. discriminate.
  - (* unlock root *)
    apply (inv_rootpart g o); try reflexivity; [exact I | |]; cbn.
    + intros _. split; congruence.
    + discriminate.
Qed.

Lemma fine_step_view : forall g o g' o', fine_step g o g' o' ->
  view o' = view o \/ exists w, own_commit g o w o'.
Proof.
  intros g o g' o' St.
  destruct St as [_ -> | w n c _ _ _ _ _ -> | w n c ct _ _ _ -> | n c _ _ _ ->
                 | n c ct _ _ _ _ -> | w _ _ _ -> | w r _ _ -> | w v' Hv Hcov _ ->
                 | w n c cv _ _ _ _ _ _ -> | w _ _ _ _ ->]; try (left; reflexivity).
  right. exists w, v'. auto.
Qed.

Section FineRun.
  Variables (H : history) (G : nat -> ghost).
  Hypothesis FR : fine_run H G.

  Lemma fine_run_inv : forall t, Inv (H t) (G t).
  Proof.
    destruct FR as [I0 St]. induction t as [|t IH]; [apply init_inv; exact I0|].
    eapply fine_step_inv; [exact IH | apply St].
  Qed.

  Theorem fine_run_agree : agree H (commit_view G).
  Proof.
    split.
    - intros t n cv Hc. eapply inv_agree_cell; [apply fine_run_inv | exact Hc].
    - intros t Hf. apply inv_agree_root; [apply fine_run_inv | exact Hf].
  Qed.

  Theorem fine_run_view_generated : view_generated (commit_view G).
  Proof.
    destruct FR as [(I0 & _) St]. split; [exact I0|]. intros t. unfold commit_view.
    destruct (fine_step_view _ _ _ _ (St t)) as [E | (w & v' & Hv & _ & E)]; [left; exact E | right].
    rewrite E. exact Hv.
  Qed.

  Lemma fine_run_stepwise : stepwise (commit_view G).
  Proof. exact (view_generated_stepwise _ fine_run_view_generated). Qed.
End FineRun.

(** a completed try_get on a fine-grained history returns the result of a
    lookup in the view at one moment between its first and its last step *)
Theorem fine_reader_linearizable : forall H G k rn r, fine_run H G -> valid_run H k rn r ->
  exists T, r_lock rn <= T <= last_moment rn /\ lookup (commit_view G T) k r.
Proof.
  intros H G k rn r FR Hv.
  exact (agree_reader_linearizable H _ (fine_run_stepwise H G FR) (fine_run_agree H G FR) k rn r Hv).
Qed.

Theorem fine_run_transfer : forall H G k rn r, fine_run H G -> valid_run H k rn r ->
  valid_run (commit_view G) k rn r.
Proof.
  intros H G k rn r FR Hv. exact (run_transfer H _ (fine_run_stepwise H G FR) (fine_run_agree H G FR) k rn r Hv).
Qed.

(** the map of the view changes only at commit points, there like insert / remove *)
Theorem fine_view_map_steps : forall H G, fine_run H G -> forall t,
  (forall k r, lookup (commit_view G (S t)) k r <-> lookup (commit_view G t) k r) \/
  (exists k v, insert_effect k v (commit_view G t) (commit_view G (S t))) \/
  (exists k, remove_effect k (commit_view G t) (commit_view G (S t))).
Proof. intros H G FR. apply view_map_steps. apply fine_run_view_generated with (H := H). exact FR. Qed.

(** the atomic model is the special case: a generated history is its own view *)
Theorem generated_agree_self : forall V, generated V -> view_generated V /\ agree V V.
Proof.
  intros V GV. split; [apply generated_view_generated; exact GV|]. split.
  - intros t n cv Hc. exists cv. auto.
  - intros t _. auto.
Qed.

(** contents change only under the lock *)
Theorem fine_free_node_step : forall H G, fine_run H G -> forall t n c,
  hp (H t) n = Some c -> hp (commit_view G t) n <> None -> w_is_free (word c) = true ->
  hp (H (S t)) n = Some c \/ hp (H (S t)) n = Some (mk (word c + 2) (cont c)).
Proof.
  intros H G FR t n c Hc Hpub Hf. pose proof (fine_run_inv H G FR t) as I. destruct FR as [_ St].
  unfold commit_view in Hpub.
  assert (Hno : forall w, owner (G t) n = Some w -> False).
  { intros w Ow. destruct (inv_held _ _ I n w Ow) as (ch & x & Hch & Hx & Ex).
    rewrite Hc in Hch. injection Hch as <-. rewrite Ex, (locked_not_free x Hx) in Hf. discriminate. }
  destruct (St t) as [-> _ | w m c0 Hc0 _ _ _ -> _ | w m c0 ct Hc0 Ow -> _ | m c0 Hnone _ -> _
                 | m c0 ct Hc0 Hw _ -> _ | w _ _ -> _ | w r _ -> _ | w v' _ _ -> _
                 | w m c0 cv Hc0 Ow _ _ _ -> _ | w _ _ _ -> _]; cbn [hp set_hp set_rootw set_rootp]; auto;
    destruct (Nat.eq_dec n m) as [->|Hne]; try (rewrite upd_neq by exact Hne; auto).
  - rewrite upd_eq. right. congruence.
  - exfalso. eapply Hno; eassumption.
  - contradiction.
  - rewrite Hc in Hc0. injection Hc0 as <-. rewrite Hw in Hf. discriminate.
  - exfalso. eapply Hno; eassumption.
Qed.

(** where no node of the view's tree is held (in particular when no writer
    is in flight) every lookup result of the view is a lookup result of the
    heap (this direction only is proved) *)
Lemma inv_lookup_rel : forall g o k, Inv g o -> WF (view o) ->
  (forall n q, reach (view o) n q -> owner o n = None) ->
  forall n d r q, lookup_rel (hp (view o)) k n d r -> reach (view o) n q -> lookup_rel (hp g) k n d r.
Proof.
  intros g o k I W Hq n d r q Hl Hr.
  apply (lookup_rel_ext _ _ k (fun m => exists q, reach (view o) m q)) with (3 := Hl); [| |eauto].
  - intros m c [q' Hr'] Hc. destruct (inv_cell g o I m c Hc) as (ch & Hch & E).
    destruct (E (Hq m q' Hr')) as [-> | [_ E1]]; [eauto|].
    destruct (wf_alloc _ W _ _ Hr') as (c' & Hc' & Hf). rewrite Hc in Hc'. injection Hc' as <-.
    rewrite E1 in Hf. discriminate.
  - intros m p b m' [q' Hr'] Hc. eexists. eapply reach_step; eassumption.
Qed.

Theorem fine_quiescent_lookup : forall H G, fine_run H G -> forall t,
  (forall n q, reach (commit_view G t) n q -> owner (G t) n = None) -> rowner (G t) = None ->
  forall k r, lookup (commit_view G t) k r -> lookup (H t) k r.
Proof.
  intros H G FR t Hq Hr k r Hl. pose proof (fine_run_inv H G FR t) as I.
  pose proof (stepwise_WF _ (fine_run_stepwise H G FR) t) as W.
  destruct (inv_root _ _ I Hr) as [_ Er]. unfold lookup, commit_view in *. rewrite Er.
  destruct (root (view (G t))) as [n|] eqn:En; [|exact Hl].
  eapply inv_lookup_rel; [exact I | exact W | exact Hq | exact Hl | apply reach_root; exact En].
Qed.

(** while w holds a node (the root lock), the view's cell of the node (the
    view's root pointer and word) changes only at w's own commit points *)
Lemma held_view_step : forall g o g' o' n w, fine_step g o g' o' -> owner o' n = Some w ->
  hp (view o') n = hp (view o) n \/ own_commit g o w o'.
Proof.
  intros g o g' o' n w St Ow.
  destruct (fine_step_view _ _ _ _ St) as [E | (w0 & v' & Hv & Hcov & ->)]; [left; rewrite E; reflexivity|].
  cbn [owner set_view] in Ow. cbn [view set_view].
  destruct (proj1 Hcov n) as [E | [Ow0 | (_ & On & _)]].
  - left. exact E.
  - right. rewrite Ow in Ow0. injection Ow0 as <-. exists v'. auto.
  - rewrite On in Ow. discriminate.
Qed.

Lemma held_root_view_step : forall g o g' o' w, fine_step g o g' o' -> rowner o' = Some w ->
  (root_word (view o') = root_word (view o) /\ root (view o') = root (view o)) \/ own_commit g o w o'.
Proof.
  intros g o g' o' w St Ow.
  destruct (fine_step_view _ _ _ _ St) as [E | (w0 & v' & Hv & Hcov & ->)]; [left; rewrite E; auto|].
  cbn [rowner set_view] in Ow. cbn [view set_view].
  destruct (proj2 Hcov) as [E | Ow0].
  - left. exact E.
  - right. rewrite Ow in Ow0. injection Ow0 as <-. exists v'. auto.
Qed.

Section Held.
  Variables (H : history) (G : nat -> ghost) (w : wid) (t1 T : nat).
  Hypothesis FR : fine_run H G.
  Hypothesis Hnc : forall t, t1 <= t < T -> ~ own_commit (H t) (G t) w (G (S t)).

  Lemma held_view_const : forall n, (forall t, t1 < t <= T -> owner (G t) n = Some w) ->
    forall u, t1 <= u <= T -> hp (commit_view G u) n = hp (commit_view G t1) n.
  Proof.
    intros n Hown u [Hu1 Hu2]. induction Hu1 as [|u Hu1 IH]; [reflexivity|].
    destruct (held_view_step _ _ _ _ n w (proj2 FR u)) as [E | Hoc].
    - apply Hown. lia.
    - unfold commit_view in *. rewrite E. apply IH. lia.
    - exfalso. apply (Hnc u); [lia | exact Hoc].
  Qed.

  Lemma held_root_view_const : (forall t, t1 < t <= T -> rowner (G t) = Some w) ->
    forall u, t1 <= u <= T -> root (commit_view G u) = root (commit_view G t1) /\
                             root_word (commit_view G u) = root_word (commit_view G t1).
  Proof.
    intros Hown u [Hu1 Hu2]. induction Hu1 as [|u Hu1 IH]; [auto|].
    destruct (held_root_view_step _ _ _ _ w (proj2 FR u)) as [[E1 E2] | Hoc].
    - apply Hown. lia.
    - unfold commit_view in *. rewrite E1, E2. apply IH. lia.
    - exfalso. apply (Hnc u); [lia | exact Hoc].
  Qed.
End Held.

Lemma hops_ok_observed : forall H k d tl tc l r, hops_ok H k d tl tc l r -> forall a, In a l -> hop_observed H a.
Proof.
  intros H k d tl tc l r Hok.
  induction Hok as [d tl tc a r Ho Hin Hst | d tl tc a b rest p cs r Ho Hin Hk Hp Hn Hok IH]; intros x Hx.
  - destruct Hx as [<- | []]. exact Ho.
  - destruct Hx as [<- | Hx]; [exact Ho | apply IH; exact Hx].
Qed.

Lemma run_hop_observed : forall H k rn r a, valid_run H k rn r -> In a (r_hops rn) -> hop_observed H a.
Proof.
  intros H k rn r a (_ & _ & _ & _ & _ & M) HIn. destruct (r_ptr rn) as [n|].
  - destruct M as (a0 & rest & Eh & _ & Hok). rewrite Eh in HIn. eapply hops_ok_observed; eassumption.
  - destruct M as [E _]. rewrite E in HIn. destruct HIn.
Qed.

(** A writer descends like a reader; its last check of an inner node is the
    successful upgrade CAS (the word is still the one it saw).  If from then
    on it holds the node up to moment T, and has not passed a commit point in
    between, then at T the node is in the VIEW's tree on the search path of
    the key with the cell the writer saw: the premise at_inode of the commit
    shapes holds in the view at the writer's commit point. *)

Lemma writer_hop_held : forall H G k rn r a d w T,
  fine_run H G -> valid_run H k rn r -> In (a, d) (hop_depths 0 (r_hops rn)) -> h_check a <= T ->
  (forall t, h_check a < t <= T -> owner (G t) (h_node a) = Some w) ->
  (forall t, h_check a <= t < T -> ~ own_commit (H t) (G t) w (G (S t))) ->
  ((exists p cs, h_cont a = CInode p cs) -> reach (commit_view G (h_check a)) (h_node a) (firstn d k)) /\
  (exists pth, reach (commit_view G (h_check a)) (h_node a) pth) /\ d <= length k /\
  exists c, word c = h_word a /\ cont c = h_cont a /\ w_is_free (word c) = true /\
    forall u, h_check a <= u <= T -> hp (commit_view G u) (h_node a) = Some c.
Proof.
  intros H G k rn r a d w T FR Hv HIn HT Hown Hnc. set (V := commit_view G).
  pose proof (fine_run_stepwise H G FR) as SV.
  pose proof (run_transfer H V SV (fine_run_agree H G FR) k rn r Hv) as Hv'.
  destruct (stepwise_hops_good V k rn r SV Hv' a d HIn) as [HG Hd].
  pose proof (run_hop_observed V k rn r a Hv' (hop_depths_In _ _ _ _ HIn)) as Ho.
  destruct (HG (h_check a)) as (Hr & Hp & c & Hc & Ew & Ec); [split; [apply Ho | lia]|].
  split; [intros Hk; apply Hr; auto | split; [exact Hp | split; [exact Hd|]]].
  exists c. split; [exact Ew | split; [exact Ec | split; [rewrite Ew; apply Ho|]]].
  intros u Hu. rewrite <- Hc. exact (held_view_const H G w (h_check a) T FR Hnc (h_node a) Hown u Hu).
Qed.

Theorem writer_target_in_view : forall H G k rn r a d p cs w T,
  fine_run H G -> valid_run H k rn r -> In (a, d) (hop_depths 0 (r_hops rn)) ->
  h_cont a = CInode p cs -> h_check a <= T ->
  (forall t, h_check a < t <= T -> owner (G t) (h_node a) = Some w) ->
  (forall t, h_check a <= t < T -> ~ own_commit (H t) (G t) w (G (S t))) ->
  reach (commit_view G T) (h_node a) (firstn d k) /\ d <= length k /\
  exists c, hp (commit_view G T) (h_node a) = Some c /\ word c = h_word a /\ cont c = h_cont a.
Proof.
  intros H G k rn r a d p cs w T FR Hv HIn Hk HT Hown Hnc.
  destruct (writer_hop_held H G k rn r a d w T FR Hv HIn HT Hown Hnc) as (Hr & _ & Hd & c & Ew & Ec & Hf & Hcs).
  split; [|split; [exact Hd | exists c; split; [apply Hcs; lia | auto]]].
  apply (stepwise_inode_stays _ (h_node a) (h_check a) T c p cs); eauto using fine_run_stepwise. congruence.
Qed.

Corollary writer_at_inode : forall H G k rn r a d p cs b w T,
  fine_run H G -> valid_run H k rn r -> In (a, d) (hop_depths 0 (r_hops rn)) ->
  h_cont a = CInode p cs -> prefix_at p d k -> nth_error k (d + length p) = Some b -> h_check a <= T ->
  (forall t, h_check a < t <= T -> owner (G t) (h_node a) = Some w) ->
  (forall t, h_check a <= t < T -> ~ own_commit (H t) (G t) w (G (S t))) ->
  exists c, at_inode (commit_view G T) k (h_node a) d c p cs b /\ word c = h_word a.
Proof.
  intros H G k rn r a d p cs b w T FR Hv HIn Hk Hp Hb HT Hown Hnc.
  destruct (writer_target_in_view H G k rn r a d p cs w T FR Hv HIn Hk HT Hown Hnc) as (Hr & Hd & c & Hc & Ew & Ec).
  exists c. split; [|exact Ew]. repeat split; try assumption. congruence.
Qed.

(** likewise for the root pointer, when the writer upgrades the root lock *)
Theorem writer_root_in_view : forall H G k rn r w T,
  fine_run H G -> valid_run H k rn r -> r_check rn <= T ->
  (forall t, r_check rn < t <= T -> rowner (G t) = Some w) ->
  (forall t, r_check rn <= t < T -> ~ own_commit (H t) (G t) w (G (S t))) ->
  root (commit_view G T) = r_ptr rn /\ root_word (commit_view G T) = r_word rn.
Proof.
  intros H G k rn r w T FR Hv HT Hown Hnc. pose proof (fine_run_stepwise H G FR) as SV.
  destruct (run_transfer H _ SV (fine_run_agree H G FR) k rn r Hv) as (Hle & Hf & W1 & W2 & Hroot & _).
  destruct (held_root_view_const H G w (r_check rn) T FR Hnc Hown T (conj HT (le_n T))) as [E1 E2]. rewrite E1, E2.
  split; [|exact W2]. rewrite <- Hroot.
  apply (root_section _ (r_lock rn) (r_check rn) (stepwise_disciplined _ SV) Hle); [congruence | congruence | lia].
Qed.

(** the same for any validated node, leaf or inner, without its path *)
Theorem writer_held_cell_in_view : forall H G k rn r a d w T,
  fine_run H G -> valid_run H k rn r -> In (a, d) (hop_depths 0 (r_hops rn)) -> h_check a <= T ->
  (forall t, h_check a < t <= T -> owner (G t) (h_node a) = Some w) ->
  (forall t, h_check a <= t < T -> ~ own_commit (H t) (G t) w (G (S t))) ->
  (exists pth, reach (commit_view G T) (h_node a) pth) /\
  exists c, hp (commit_view G T) (h_node a) = Some c /\ word c = h_word a /\ cont c = h_cont a.
Proof.
  intros H G k rn r a d w T FR Hv HIn HT Hown Hnc.
  destruct (writer_hop_held H G k rn r a d w T FR Hv HIn HT Hown Hnc) as (_ & [pth Hr] & _ & c & Ew & Ec & Hf & Hcs).
  split; [|exists c; split; [apply Hcs; lia | auto]].
  apply (stepwise_stays_reachable _ (fine_run_stepwise H G FR) (h_check a) T (h_node a) pth HT Hr).
  intros u Hu. exists c. split; [apply Hcs; exact Hu | apply free_not_obsolete; exact Hf].
Qed.

(** the view is the heap with the in-flight writers rolled back or forward *)
Theorem fine_unheld_cell : forall H G, fine_run H G -> forall t n cv,
  hp (commit_view G t) n = Some cv -> owner (G t) n = None ->
  exists ch, hp (H t) n = Some ch /\ (ch = cv \/ (word ch = 1%Z /\ word cv = 1%Z)).
Proof.
  intros H G FR t n cv Hc On. destruct (inv_cell _ _ (fine_run_inv H G FR t) n cv Hc) as (ch & Hch & E).
  exists ch. split; [exact Hch | apply E; exact On].
Qed.

(** rolled back: a node locked at tl and held since by a writer that has not
    passed a commit point has, in the view, the cell it had before the lock *)
Theorem fine_view_rolled_back : forall H G n c w tl T, fine_run H G ->
  hp (H tl) n = Some c -> w_is_free (word c) = true -> hp (commit_view G tl) n <> None -> tl <= T ->
  (forall t, tl < t <= T -> owner (G t) n = Some w) ->
  (forall t, tl <= t < T -> ~ own_commit (H t) (G t) w (G (S t))) ->
  hp (commit_view G T) n = Some c.
Proof.
  intros H G n c w tl T FR Hc Hf Hpub HT Hown Hnc.
  rewrite (held_view_const H G w tl T FR Hnc n Hown T (conj HT (le_n T))).
  destruct (hp (commit_view G tl) n) as [cv|] eqn:Hcv; [|contradiction].
  destruct (proj1 (fine_run_agree H G FR) tl n cv Hcv) as (ch & Hch & E).
  rewrite Hc in Hch. injection Hch as <-. rewrite (E Hf). reflexivity.
Qed.

(** summary for a fine-grained history without its ghost *)
Theorem fine_generated_reader : forall H, fine_generated H ->
  exists V, view_generated V /\ agree H V /\
    (forall k rn r, valid_run H k rn r ->
       valid_run V k rn r /\ exists T, r_lock rn <= T <= last_moment rn /\ lookup (V T) k r) /\
    (forall t, (forall k r, lookup (V (S t)) k r <-> lookup (V t) k r) \/
               (exists k v, insert_effect k v (V t) (V (S t))) \/
               (exists k, remove_effect k (V t) (V (S t)))).
Proof.
  intros H [G FR]. exists (commit_view G).
  split; [exact (fine_run_view_generated H G FR)|].
  split; [apply fine_run_agree; exact FR|]. split.
  - intros k rn r Hv. split; [eapply fine_run_transfer; eassumption | eapply fine_reader_linearizable; eassumption].
  - eapply fine_view_map_steps; exact FR.
Qed.

(** without version bumps the view is a generated history of Olc/WriteModel.v *)
Lemma view_commits_only_generated : forall V, view_generated V ->
  (forall t, V (S t) = V t \/ exists k, commit k (V t) (V (S t))) -> generated V.
Proof. intros V [I _] Hs. split; assumption. Qed.

Print Assumptions fine_reader_linearizable.
Print Assumptions fine_view_map_steps.
Print Assumptions writer_at_inode.
Print Assumptions fine_generated_reader.
Print Assumptions writer_held_cell_in_view.
Print Assumptions writer_root_in_view.
Print Assumptions fine_quiescent_lookup.
Print Assumptions fine_view_rolled_back.
