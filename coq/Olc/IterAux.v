(** C09c / C09d: auxiliary facts for Olc/IterProofs.v: byte-wise order against
    a common prefix, sorted children lists, "the nodes reachable along the
    bytes of one key form a chain" (trie determinism), and the direction
    parameter over which the forward and the reverse iterator are one proof. *)
From Coq Require Import List ZArith Lia Sorted.
From Unodb Require Import Base.Lex Olc.ReadModel Olc.ReadProofs Olc.IterModel Olc.IterRevModel.
Import ListNotations.
Local Open Scope Z_scope.

Lemma lex_le_refl : forall a, lex_le a a.
Proof. intros a. unfold lex_le. rewrite lex_compare_refl. discriminate. Qed.

Lemma lex_le_nil : forall x, lex_le [] x.
Proof. intros [|y x]; unfold lex_le; cbn; discriminate. Qed.

Lemma lex_lt_le : forall a b, lex_lt a b -> lex_le a b.
Proof. unfold lex_lt, lex_le. intros a b E. rewrite E. discriminate. Qed.

Lemma lex_le_cases : forall a b, lex_le a b -> a = b \/ lex_lt a b.
Proof.
  unfold lex_le, lex_lt. intros a b Hn. destruct (lex_compare a b) eqn:E.
  - left. apply lex_compare_eq. exact E.
  - right. reflexivity.
  - contradiction.
Qed.

Lemma lex_lt_le_trans : forall a b c, lex_lt a b -> lex_le b c -> lex_lt a c.
Proof. intros a b c Hab Hbc. destruct (lex_le_cases b c Hbc) as [<-|L]; [exact Hab | eapply lex_lt_trans; eassumption]. Qed.

Lemma lex_lt_not_le : forall a b, lex_lt a b -> ~ lex_le b a.
Proof. intros a b L Hle. exact (lex_lt_irrefl _ (lex_lt_le_trans _ _ _ L Hle)). Qed.

Lemma not_lt_le : forall a b, ~ lex_lt b a -> lex_le a b.
Proof. intros a b Hn E. apply Hn. apply lex_lt_gt. exact E. Qed.

Lemma lex_lt_cons : forall u a v b, lex_lt (u :: a) (v :: b) <-> u < v \/ (u = v /\ lex_lt a b).
Proof.
  intros u a v b. unfold lex_lt. cbn. destruct (Z.compare_spec u v) as [E|L|G]; split; intros Hx.
  - right. split; assumption.
  - destruct Hx as [Hx|[_ Hx]]; [lia | exact Hx].
  - left. exact L.
  - reflexivity.
  - discriminate.
  - destruct Hx as [Hx|[Hx _]]; lia.
Qed.

Lemma lex_le_cons : forall u a v b, lex_le (u :: a) (v :: b) <-> u < v \/ (u = v /\ lex_le a b).
Proof.
  intros u a v b. unfold lex_le. cbn. destruct (Z.compare_spec u v) as [E|L|G]; split; intros Hx.
  - right. split; assumption.
  - destruct Hx as [Hx|[_ Hx]]; [lia | exact Hx].
  - left. exact L.
  - discriminate.
  - contradiction.
  - destruct Hx as [Hx|[Hx _]]; lia.
Qed.

Lemma above_cons : forall s u a v b, above s (u :: a) (v :: b) <-> u < v \/ (u = v /\ above s a b).
Proof. intros [|] u a v b; cbn [above]; [apply lex_lt_cons | apply lex_le_cons]. Qed.

Lemma above_app : forall s p a b, above s (p ++ a) (p ++ b) <-> above s a b.
Proof.
  intros [|] p a b; cbn [above]; unfold lex_lt, lex_le; rewrite lex_compare_app_same; reflexivity.
Qed.

Lemma lex_lt_app : forall p a b, lex_lt (p ++ a) (p ++ b) <-> lex_lt a b.
Proof. intros p a b. unfold lex_lt. rewrite lex_compare_app_same. reflexivity. Qed.

Lemma above_nil_not : forall s u a, ~ above s (u :: a) [].
Proof. intros [|] u a; cbn; unfold lex_lt, lex_le; cbn; [discriminate | intros Hx; apply Hx; reflexivity]. Qed.

Lemma lex_lt_byte : forall q p u v r r', u < v -> lex_lt (q ++ p ++ u :: r) (q ++ p ++ v :: r').
Proof. intros q p u v r r' L. apply lex_lt_app. apply lex_lt_app. apply lex_lt_cons. left. exact L. Qed.

Lemma lex_lt_byte_inv : forall q p u v r r', lex_lt (q ++ p ++ u :: r) (q ++ p ++ v :: r') -> u <= v.
Proof.
  intros q p u v r r' L. apply lex_lt_app in L. apply lex_lt_app in L. apply lex_lt_cons in L.
  destruct L as [?|[? _]]; lia.
Qed.

Lemma lex_between : forall p a b x, lex_le (p ++ a) x -> lex_le x (p ++ b) -> is_pre p x.
Proof.
  induction p as [|u p IH]; intros a b x Hlo Hhi.
  - exists x. reflexivity.
  - destruct x as [|y x].
    + exfalso. apply Hlo. reflexivity.
    + cbn [app] in Hlo, Hhi. apply lex_le_cons in Hlo. apply lex_le_cons in Hhi.
      assert (u = y) as -> by (destruct Hlo as [?|[? _]]; destruct Hhi as [?|[? _]]; lia).
      destruct Hlo as [?|[_ Hlo]]; [lia|]. destruct Hhi as [?|[_ Hhi]]; [lia|].
      destruct (IH a b x Hlo Hhi) as [r ->]. exists r. reflexivity.
Qed.

Lemma sorted_nth_lt : forall (l : list Z), StronglySorted Z.lt l ->
  forall i j a b, (i < j)%nat -> nth_error l i = Some a -> nth_error l j = Some b -> a < b.
Proof.
  intros l S. induction S as [|x l S IH F]; intros i j a b Hij Hi Hj.
  - destruct i; discriminate.
  - destruct j as [|j]; [lia|]. cbn in Hj. destruct i as [|i].
    + cbn in Hi. injection Hi as <-. rewrite Forall_forall in F. apply F. eapply nth_error_In. exact Hj.
    + cbn in Hi. apply (IH i j); [lia | assumption | assumption].
Qed.

Lemma nth_map_fst : forall (cs : list (Z * nid)) i b c,
  nth_error cs i = Some (b, c) -> nth_error (map fst cs) i = Some b.
Proof. intros cs i b c E. rewrite nth_error_map, E. reflexivity. Qed.

Lemma find_child_some_nth : forall cs b c, find_child b cs = Some c -> exists i, nth_error cs i = Some (b, c).
Proof.
  induction cs as [|[b0 c0] cs IH]; intros b c Hf; cbn in Hf; [discriminate|].
  destruct (Z.eqb_spec b b0) as [->|Hne].
  - injection Hf as ->. exists 0%nat. reflexivity.
  - destruct (IH b c Hf) as [i Hi]. exists (S i). exact Hi.
Qed.

Lemma find_child_nth : forall cs i b c, bytes_sorted cs -> nth_error cs i = Some (b, c) -> find_child b cs = Some c.
Proof.
  induction cs as [|[b0 c0] cs IH]; intros i b c Hs Hn.
  - destruct i; discriminate.
  - destruct i as [|i]; cbn in Hn.
    + injection Hn as -> ->. cbn. rewrite Z.eqb_refl. reflexivity.
    + cbn. unfold bytes_sorted in Hs. cbn in Hs. inversion Hs as [|x l S F]; subst.
      assert (b0 < b).
      { rewrite Forall_forall in F. apply F. apply in_map_iff. exists (b, c). split; [reflexivity|].
        eapply nth_error_In. exact Hn. }
      destruct (Z.eqb_spec b b0); [lia|]. apply (IH i); assumption.
Qed.

Lemma sorted_rows : forall cs i j u cu v cv, bytes_sorted cs -> (i < j)%nat ->
  nth_error cs i = Some (u, cu) -> nth_error cs j = Some (v, cv) -> u < v.
Proof.
  intros cs i j u cu v cv Hs Hij A B.
  exact (sorted_nth_lt _ Hs i j u v Hij (nth_map_fst _ _ _ _ A) (nth_map_fst _ _ _ _ B)).
Qed.

Lemma child_first : forall cs b c bx cx, bytes_sorted cs ->
  nth_error cs 0 = Some (b, c) -> find_child bx cs = Some cx -> (bx = b /\ cx = c) \/ b < bx.
Proof.
  intros cs b c bx cx Hs H0 Hf. destruct (find_child_some_nth _ _ _ Hf) as [[|j] Hj].
  - left. rewrite H0 in Hj. injection Hj as -> ->. auto.
  - right. exact (sorted_rows _ 0 (S j) _ _ _ _ Hs ltac:(lia) H0 Hj).
Qed.

Lemma child_last : forall cs i b c bx cx, bytes_sorted cs ->
  nth_error cs i = Some (b, c) -> nth_error cs (S i) = None -> find_child bx cs = Some cx ->
  (bx = b /\ cx = c) \/ bx < b.
Proof.
  intros cs i b c bx cx Hs Hi Hn Hf. destruct (find_child_some_nth _ _ _ Hf) as [j Hj].
  assert (j < length cs)%nat by (apply nth_error_Some; congruence). apply nth_error_None in Hn.
  destruct (Nat.eq_dec j i) as [->|Hne].
  - left. rewrite Hi in Hj. injection Hj as -> ->. auto.
  - right. exact (sorted_rows _ j i _ _ _ _ Hs ltac:(lia) Hj Hi).
Qed.

Lemma child_gap : forall cs i b c b' c' bx cx, bytes_sorted cs ->
  nth_error cs i = Some (b, c) -> nth_error cs (S i) = Some (b', c') -> find_child bx cs = Some cx ->
  b < b' /\ (bx < b \/ (bx = b /\ cx = c) \/ (bx = b' /\ cx = c') \/ b' < bx).
Proof.
  intros cs i b c b' c' bx cx Hs Hi Hn Hf. destruct (find_child_some_nth _ _ _ Hf) as [j Hj].
  split; [exact (sorted_rows _ i (S i) _ _ _ _ Hs ltac:(lia) Hi Hn)|].
  destruct (lt_eq_lt_dec j i) as [[Hlt | ->] | Hgt].
  - left. exact (sorted_rows _ j i _ _ _ _ Hs Hlt Hj Hi).
  - right. left. rewrite Hi in Hj. injection Hj as -> ->. auto.
  - destruct (Nat.eq_dec j (S i)) as [->|Hne].
    + right. right. left. rewrite Hn in Hj. injection Hj as -> ->. auto.
    + right. right. right. exact (sorted_rows _ (S i) j _ _ _ _ Hs ltac:(lia) Hn Hj).
Qed.

Lemma is_pre_app_l : forall a b x, is_pre (a ++ b) x -> is_pre a x.
Proof. intros a b x [r ->]. exists (b ++ r). rewrite app_assoc. reflexivity. Qed.

Lemma is_pre_same_len : forall a b x, is_pre a x -> is_pre b x -> length a = length b -> a = b.
Proof.
  intros a b x [r ->] [r' E] L.
  assert (firstn (length a) (a ++ r) = firstn (length b) (b ++ r')) by (rewrite L, E; reflexivity).
  rewrite !firstn_app_exact in H. exact H.
Qed.

Lemma is_pre_refl_app : forall a r, is_pre a (a ++ r).
Proof. intros a r. exists r. reflexivity. Qed.

Lemma is_pre_trans : forall a b c, is_pre a b -> is_pre b c -> is_pre a c.
Proof. intros a b c [r ->] [r' ->]. exists (r ++ r'). rewrite app_assoc. reflexivity. Qed.

Lemma is_pre_dec : forall q x, {is_pre q x} + {~ is_pre q x}.
Proof.
  intros q x. destruct (is_prefix q x) eqn:E.
  - left. apply is_prefix_spec in E. exact E.
  - right. intros P. apply is_prefix_spec in P. congruence.
Qed.

Lemma cpath_below : forall e r, e_cpath e ++ r = e_pth e ++ e_pre e ++ e_byte e :: r.
Proof. intros e r. unfold e_cpath. rewrite <- !app_assoc. reflexivity. Qed.

Inductive desc (g : gstate) (n : nid) (pth : list Z) : nid -> list Z -> Prop :=
| desc_refl : desc g n pth n pth
| desc_step : forall m q c p cs b c', desc g n pth m q -> hp g m = Some c -> cont c = CInode p cs ->
    find_child b cs = Some c' -> desc g n pth c' (q ++ p ++ [b]).

Lemma desc_ext : forall g n pth m q, desc g n pth m q -> exists e, q = pth ++ e.
Proof.
  intros g n pth m q D. induction D as [|m q c p cs b c' D [e ->] Hc Hk Hf].
  - exists []. rewrite app_nil_r. reflexivity.
  - exists (e ++ p ++ [b]). rewrite <- app_assoc. reflexivity.
Qed.

Lemma desc_head : forall g n pth m q, desc g n pth m q ->
  (m = n /\ q = pth) \/
  exists c p cs b c', hp g n = Some c /\ cont c = CInode p cs /\ find_child b cs = Some c' /\
    desc g c' (pth ++ p ++ [b]) m q.
Proof.
  intros g n pth m q D. induction D as [|m q c p cs b c' D IH Hc Hk Hf].
  - left. split; reflexivity.
  - right. destruct IH as [[-> ->] | (c0 & p0 & cs0 & b0 & c0' & A1 & A2 & A3 & A4)].
    + exists c, p, cs, b, c'. repeat split; try assumption. apply desc_refl.
    + exists c0, p0, cs0, b0, c0'. repeat split; try assumption. eapply desc_step; eassumption.
Qed.

Lemma reach_nil_root : forall g n, reach g n [] -> root g = Some n.
Proof.
  intros g n R. inversion R as [n0 Hr | n0 pth c p cs b c' R0 Hc Hk Hf E]; subst; [exact Hr|].
  exfalso. destruct pth; [destruct p|]; discriminate.
Qed.

Lemma reach_has_root : forall g n pth, reach g n pth -> root g <> None.
Proof. intros g n pth R. induction R as [n Hr|]; [congruence | assumption]. Qed.

Lemma length_step_path : forall (a p : list Z) b, length (a ++ p ++ [b]) = (length a + length p + 1)%nat.
Proof. intros. rewrite !app_length. cbn. lia. Qed.

Lemma chain_aux : forall g x N n1 q1 n2 q2, (length q1 + length q2 < N)%nat ->
  reach g n1 q1 -> reach g n2 q2 -> is_pre q1 x -> is_pre q2 x -> (length q1 <= length q2)%nat ->
  desc g n1 q1 n2 q2.
Proof.
  (* Induction on a bound N of the two path lengths: take the last edge off
     the longer path q2.  If q1 is no longer than the rest, the induction
     hypothesis and that edge give the chain.  Otherwise q1 has a last edge
     too and the two parents are comparable by the hypothesis; q1 being
     longer than q2's parent path and no longer than q2 forces the same
     parent, and then the same byte ([is_pre_same_len]) and child. *)
  intros g x N. induction N as [|N IH]; intros n1 q1 n2 q2 HN R1 R2 P1 P2 L; [lia|].
  inversion R2 as [n0 Hr2 | m2 pth2 c2 p2 cs2 b2 c2' R2' Hc2 Hk2 Hf2 E2]; subst.
  - assert (q1 = []) as -> by (destruct q1; [reflexivity | cbn in L; lia]).
    apply reach_nil_root in R1. assert (n1 = n2) as -> by congruence. apply desc_refl.
  - rewrite length_step_path in L, HN.
    assert (P2' : is_pre pth2 x) by (eapply is_pre_app_l; exact P2).
    destruct (le_lt_dec (length q1) (length pth2)) as [Hle|Hgt].
    + eapply desc_step; try eassumption. apply IH; try assumption. lia.
    + inversion R1 as [n0 Hr1 | m1 pth1 c1 p1 cs1 b1 c1' R1' Hc1 Hk1 Hf1 E1]; subst; [cbn in Hgt; lia|].
      rewrite length_step_path in L, HN, Hgt.
      assert (P1' : is_pre pth1 x) by (eapply is_pre_app_l; exact P1).
      destruct (le_lt_dec (length pth1) (length pth2)) as [Hle'|Hgt'].
      * assert (D : desc g m1 pth1 m2 pth2) by (apply IH; try assumption; lia).
        destruct (desc_head _ _ _ _ _ D) as [[-> ->] | (c0 & p0 & cs0 & b0 & c0' & A1 & A2 & A3 & A4)].
        -- rewrite Hc1 in Hc2. injection Hc2 as ->. rewrite Hk1 in Hk2. injection Hk2 as -> ->.
           assert (E : pth1 ++ p2 ++ [b1] = pth1 ++ p2 ++ [b2]).
           { eapply is_pre_same_len; try eassumption. rewrite !length_step_path. reflexivity. }
           apply app_inv_head in E. apply app_inv_head in E. injection E as ->.
           rewrite Hf1 in Hf2. injection Hf2 as ->. apply desc_refl.
        -- exfalso. rewrite Hc1 in A1. injection A1 as <-. rewrite Hk1 in A2. injection A2 as <- <-.
           destruct (desc_ext _ _ _ _ _ A4) as [e Ee]. rewrite Ee in Hgt.
           rewrite app_length, length_step_path in Hgt. lia.
      * exfalso. assert (D : desc g m2 pth2 m1 pth1) by (apply IH; try assumption; lia).
        destruct (desc_head _ _ _ _ _ D) as [[-> ->] | (c0 & p0 & cs0 & b0 & c0' & A1 & A2 & A3 & A4)]; [lia|].
        rewrite Hc2 in A1. injection A1 as <-. rewrite Hk2 in A2. injection A2 as <- <-.
        destruct (desc_ext _ _ _ _ _ A4) as [e Ee]. rewrite Ee in L, Hgt.
        rewrite app_length, length_step_path in L. lia.
Qed.

Lemma reach_chain : forall g x n1 q1 n2 q2,
  reach g n1 q1 -> reach g n2 q2 -> is_pre q1 x -> is_pre q2 x -> (length q1 <= length q2)%nat ->
  desc g n1 q1 n2 q2.
Proof. intros g x n1 q1 n2 q2. apply (chain_aux g x (S (length q1 + length q2))). lia. Qed.

(** Forward (try_next, try_first, seek with fwd = true) and reverse (try_prior,
    try_last, fwd = false) are the same code with the order of keys, of key
    bytes and of child indices turned around.  Everything that depends on the
    order is a [match] on the direction, so that the definitions of
    Olc/IterModel.v and Olc/IterRevModel.v are convertible to the two
    instances. *)

Inductive dir := Fwd | Rev.

Definition opp (d : dir) : dir := match d with Fwd => Rev | Rev => Fwd end.

Definition dlt (d : dir) (a b : key) : Prop := match d with Fwd => lex_lt a b | Rev => lex_lt b a end.
Definition dle (d : dir) (a b : key) : Prop := match d with Fwd => lex_le a b | Rev => lex_le b a end.
Definition dltZ (d : dir) (a b : Z) : Prop := match d with Fwd => a < b | Rev => b < a end.
Definition dltN (d : dir) (i j : nat) : Prop := match d with Fwd => (i < j)%nat | Rev => (j < i)%nat end.

Lemma dlt_irrefl : forall d a, ~ dlt d a a.
Proof. intros [|] a; apply lex_lt_irrefl. Qed.

Lemma dlt_neq : forall d a b, dlt d a b -> b <> a.
Proof. intros d a b L ->. exact (dlt_irrefl _ _ L). Qed.

Lemma dlt_trans : forall d a b c, dlt d a b -> dlt d b c -> dlt d a c.
Proof. intros [|] a b c L1 L2; cbn in *; eapply lex_lt_trans; eassumption. Qed.

Lemma dlt_tricho : forall d a b, dlt d a b \/ a = b \/ dlt d b a.
Proof. intros [|] a b; cbn; destruct (lex_trichotomy a b) as [?|[?|?]]; auto. Qed.

Lemma dlt_le : forall d a b, dlt d a b -> dle d a b.
Proof. intros [|] a b; apply lex_lt_le. Qed.

Lemma dle_cases : forall d a b, dle d a b -> a = b \/ dlt d a b.
Proof. intros [|] a b L; cbn in *; destruct (lex_le_cases _ _ L); auto. Qed.

Lemma dlt_not_le : forall d a b, dlt d a b -> ~ dle d b a.
Proof. intros [|] a b; apply lex_lt_not_le. Qed.

Lemma not_dlt_le : forall d a b, ~ dlt d b a -> dle d a b.
Proof. intros [|] a b; apply not_lt_le. Qed.

Lemma dlt_byte : forall d q p u v r r', dltZ d u v -> dlt d (q ++ p ++ u :: r) (q ++ p ++ v :: r').
Proof. intros [|] q p u v r r'; apply lex_lt_byte. Qed.

Lemma dlt_byte_inv : forall d q p u v r r', dlt d (q ++ p ++ u :: r) (q ++ p ++ v :: r') -> ~ dltZ d v u.
Proof. intros [|] q p u v r r' L Hx; cbn in *; apply lex_lt_byte_inv in L; lia. Qed.

Lemma dbetween : forall d p a b x, dle d (p ++ a) x -> dle d x (p ++ b) -> is_pre p x.
Proof. intros [|] p a b x L1 L2; cbn in *; eapply lex_between; eassumption. Qed.

Definition dbound (d : dir) (strict : bool) (b x : key) : Prop := if strict then dlt d b x else dle d b x.

Lemma dbound_le : forall d s b x, dbound d s b x -> dle d b x.
Proof. intros d [|] b x; cbn; [apply dlt_le | auto]. Qed.

Lemma above_le : forall s a b, above s a b -> lex_le a b.
Proof. exact (dbound_le Fwd). Qed.

Lemma lt_dbound : forall d s b x, dlt d b x -> dbound d s b x.
Proof. intros d [|] b x L; cbn; [exact L | apply dlt_le; exact L]. Qed.

Lemma dbound_not_lt : forall d s b x, dbound d s b x -> ~ dlt d x b.
Proof. intros d s b x B L. exact (dlt_not_le d _ _ L (dbound_le d s b x B)). Qed.

Lemma dbound_up : forall d s b x y, dbound d s b x -> dlt d x y -> dbound d s b y.
Proof.
  intros d s b x y B L. apply lt_dbound. destruct (dle_cases d _ _ (dbound_le d s b x B)) as [->|L'].
  - exact L.
  - eapply dlt_trans; eassumption.
Qed.

Lemma dbound_decidable : forall d s b x, dbound d s b x \/ ~ dbound d s b x.
Proof.
  intros d s b x. destruct (dlt_tricho d b x) as [L | [-> | L]].
  - left. apply lt_dbound. exact L.
  - destruct s; cbn; [right; apply dlt_irrefl | left; apply not_dlt_le; apply dlt_irrefl].
  - right. intros B. exact (dbound_not_lt d s b x B L).
Qed.

(** atomic and interval queries: [first_query] / [wquery] of Olc/IterModel.v are
    the instances [Fwd], [above s lo]; [last_query] / [rquery] of
    Olc/IterRevModel.v the instances [Rev], [below u] *)
Definition gfirst (d : dir) (g : gstate) (A : key -> Prop) (r : option (key * val)) : Prop :=
  match r with
  | Some (k, v) => A k /\ entry g k v /\ forall x, A x -> dlt d x k -> ~ has_key g x
  | None => forall x, A x -> ~ has_key g x
  end.

Definition gquery (d : dir) (H : history) (t1 t2 : nat) (A : key -> Prop) (r : option (key * val)) : Prop :=
  match r with
  | Some (k, v) => A k /\ (exists T, (t1 <= T <= t2)%nat /\ entry (H T) k v) /\
                   forall x, A x -> dlt d x k -> absent_within H t1 t2 x
  | None => forall x, A x -> absent_within H t1 t2 x
  end.

(** The theorems over [dir] are used at the definitions of the two model files
    by conversion alone; these are the conversions, so that a change of a
    model definition that breaks one fails here.  ([popped_ok], [rpopped_ok]:
    Olc/IterProofs.v, Olc/IterRevProofs.v; the seek endings: Olc/IterSeek.v.) *)
Lemma above_dbound : forall s lo, above s lo = dbound Fwd s lo.
Proof. reflexivity. Qed.

Lemma below_dbound : forall s hi, below (UKey s hi) = dbound Rev s hi.
Proof. reflexivity. Qed.

Lemma first_query_gfirst : forall g s lo r, first_query g s lo r = gfirst Fwd g (dbound Fwd s lo) r.
Proof. reflexivity. Qed.

Lemma last_query_gfirst : forall g u r, last_query g u r = gfirst Rev g (below u) r.
Proof. reflexivity. Qed.

Lemma wquery_gquery : forall H t1 t2 s lo r, wquery H t1 t2 s lo r = gquery Fwd H t1 t2 (dbound Fwd s lo) r.
Proof. reflexivity. Qed.

Lemma rquery_gquery : forall H t1 t2 u r, rquery H t1 t2 u r = gquery Rev H t1 t2 (below u) r.
Proof. reflexivity. Qed.

Lemma gquery_some : forall d H t1 t2 s b T k v, dlt d b k -> (t1 <= T <= t2)%nat -> entry (H T) k v ->
  (forall x, dbound d s b x -> dlt d x k -> absent_within H t1 t2 x) ->
  gquery d H t1 t2 (dbound d s b) (Some (k, v)).
Proof. intros d H t1 t2 s b T k v L HT E G. split; [apply lt_dbound; exact L|]. split; [exists T; auto | exact G]. Qed.

Lemma gfirst_gquery : forall d (H : history) T A r, gfirst d (H T) A r -> gquery d H T T A r.
Proof.
  intros d H T A [[k v]|]; cbn.
  - intros (Ak & E & G). split; [exact Ak|]. split; [exists T; split; [lia | exact E]|].
    intros x Ax Lx. exists T. split; [lia | exact (G x Ax Lx)].
  - intros G x Ax. exists T. split; [lia | exact (G x Ax)].
Qed.

Lemma gquery_widen : forall d H t1 t2 u1 u2 A r, (u1 <= t1)%nat -> (t2 <= u2)%nat ->
  gquery d H t1 t2 A r -> gquery d H u1 u2 A r.
Proof.
  intros d H t1 t2 u1 u2 A [[k v]|] L1 L2; cbn.
  - intros (Ak & (T & HT & E) & G). split; [exact Ak|]. split; [exists T; split; [lia | exact E]|].
    intros x Ax Lx. destruct (G x Ax Lx) as (T' & HT' & N). exists T'. split; [lia | exact N].
  - intros G x Ax. destruct (G x Ax) as (T' & HT' & N). exists T'. split; [lia | exact N].
Qed.

Lemma gquery_strict : forall d H t1 t2 b k v, gquery d H t1 t2 (dbound d false b) (Some (k, v)) -> k <> b ->
  gquery d H t1 t2 (dbound d true b) (Some (k, v)).
Proof.
  intros d H t1 t2 b k v (Ak & E & G) Hne. split; [|split; [exact E|]].
  - destruct (dle_cases d _ _ Ak) as [->|L]; [congruence | exact L].
  - intros x Ax Lx. apply G; [apply dlt_le; exact Ax | exact Lx].
Qed.

Lemma gfirst_none_strict : forall d g b, gfirst d g (dbound d false b) None -> gfirst d g (dbound d true b) None.
Proof. intros d g b G x Ax. apply G. apply dlt_le. exact Ax. Qed.

(** the child an extreme descent takes (left-most: begin(), right-most: last());
    [far]: no further child in the direction, the entry is popped *)
Definition near (d : dir) (e : sentry) : Prop :=
  match d with Fwd => e_idx e = 0%nat | Rev => nth_error (e_cs e) (S (e_idx e)) = None end.
Definition far (d : dir) (e : sentry) : Prop := near (opp d) e.

Definition dadj (d : dir) (i j : nat) : Prop :=
  match d with Fwd => j = S i | Rev => (0 < i)%nat /\ j = Nat.pred i end.

(** the pivot re-pointed to the child at index j: [advance] and [retreat] *)
Definition repoint (e : sentry) (j : nat) (b : Z) (c : nid) : sentry :=
  {| e_node := e_node e; e_pth := e_pth e; e_pre := e_pre e; e_cs := e_cs e;
     e_idx := j; e_byte := b; e_child := c; e_word := e_word e; e_at := e_at e |}.

Definition taken (e : sentry) : Prop := nth_error (e_cs e) (e_idx e) = Some (e_byte e, e_child e).

Lemma near_spec : forall d e bx cx, bytes_sorted (e_cs e) -> taken e -> near d e ->
  find_child bx (e_cs e) = Some cx -> (bx = e_byte e /\ cx = e_child e) \/ dltZ d (e_byte e) bx.
Proof.
  intros [|] e bx cx Hs Hn Hd Hf; unfold taken in Hn; cbn in *.
  - rewrite Hd in Hn. exact (child_first _ _ _ _ _ Hs Hn Hf).
  - exact (child_last _ _ _ _ _ _ Hs Hn Hd Hf).
Qed.

Lemma far_spec : forall d e bx cx, bytes_sorted (e_cs e) -> taken e -> far d e ->
  find_child bx (e_cs e) = Some cx -> (bx = e_byte e /\ cx = e_child e) \/ dltZ d bx (e_byte e).
Proof. intros [|]; [exact (near_spec Rev) | exact (near_spec Fwd)]. Qed.

Lemma adj_gap : forall d cs i b c j b' c' bx cx, bytes_sorted cs ->
  nth_error cs i = Some (b, c) -> dadj d i j -> nth_error cs j = Some (b', c') -> find_child bx cs = Some cx ->
  dltZ d b b' /\ (dltZ d bx b \/ (bx = b /\ cx = c) \/ (bx = b' /\ cx = c') \/ dltZ d b' bx).
Proof.
  intros [|] cs i b c j b' c' bx cx Hs Hi Hj Hn Hf; cbn in *.
  - subst j. exact (child_gap _ _ _ _ _ _ _ _ Hs Hi Hn Hf).
  - destruct Hj as [Hpos ->]. replace i with (S (Nat.pred i)) in Hi by lia.
    destruct (child_gap _ _ _ _ _ _ _ _ Hs Hn Hi Hf) as [L [?|[?|[?|?]]]]; auto.
Qed.

Lemma dltN_tricho : forall d i j, dltN d i j \/ i = j \/ dltN d j i.
Proof. intros [|] i j; cbn; lia. Qed.

Lemma sorted_dir : forall d cs i j u cu v cv, bytes_sorted cs -> dltN d i j ->
  nth_error cs i = Some (u, cu) -> nth_error cs j = Some (v, cv) -> dltZ d u v.
Proof. intros [|] cs i j u cu v cv Hs L A B; cbn in *; eapply sorted_rows; eassumption. Qed.
