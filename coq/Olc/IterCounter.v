(** C09c: the atomic reading of an iterator step is false -- a checked
    counterexample.  Tree: root 0 = {1 -> node 1, 2 -> node 2}, node 1 =
    {1 -> leaf 3 "11"}, node 2 = {5 -> leaf 4 "25"}.  The iterator stands on
    "11".  try_next re-validates the leaf (moment 1) and node 1 (moment 2),
    pops both.  At moment 3 a writer inserts "12" below node 1, at moment 4
    another writer inserts "20" below node 2.  The root entry is re-validated
    (unchanged), its next child is node 2, the left-most descent delivers
    "20".  All conditions of the step theorem hold, the step is an interval
    successor query, but at no single moment is "20" the successor of "11". *)
From Coq Require Import List ZArith Bool Arith Lia Sorted.
From Unodb Require Import Base.Lex Lock.LockModel Olc.ReadModel Olc.IterModel Olc.IterProofs Olc.ExampleKit.
Import ListNotations.
Local Open Scope Z_scope.

Definition k0 : list (Z * nid) := [(1, 1%nat); (2, 2%nat)].
Definition k1 : list (Z * nid) := [(1, 3%nat)].
Definition k1' : list (Z * nid) := [(1, 3%nat); (2, 5%nat)].
Definition k2 : list (Z * nid) := [(5, 4%nat)].
Definition k2' : list (Z * nid) := [(0, 6%nat); (5, 4%nat)].

Definition hc0 (n : nid) : option cell :=
  match n with
  | 0%nat => Some {| word := 0; cont := CInode [] k0 |}
  | 1%nat => Some {| word := 0; cont := CInode [] k1 |}
  | 2%nat => Some {| word := 0; cont := CInode [] k2 |}
  | 3%nat => Some {| word := 0; cont := CLeaf [1; 1] [110] |}
  | 4%nat => Some {| word := 0; cont := CLeaf [2; 5] [250] |}
  | _ => None
  end.
Definition hc1 (n : nid) : option cell :=
  match n with
  | 1%nat => Some {| word := 4; cont := CInode [] k1' |}
  | 5%nat => Some {| word := 0; cont := CLeaf [1; 2] [120] |}
  | _ => hc0 n
  end.
Definition hc2 (n : nid) : option cell :=
  match n with
  | 2%nat => Some {| word := 4; cont := CInode [] k2' |}
  | 6%nat => Some {| word := 0; cont := CLeaf [2; 0] [200] |}
  | _ => hc1 n
  end.
Definition mk (h : nid -> option cell) : gstate := {| hp := h; root_word := 0; root := Some 0%nat |}.
Definition Hc : history := fun t => if (t <? 3)%nat then mk hc0 else if (t <? 4)%nat then mk hc1 else mk hc2.

Definition places_c : list (nid * list Z) :=
  [(0%nat, []); (1%nat, [1]); (2%nat, [2]); (3%nat, [1; 1]); (4%nat, [2; 5]); (5%nat, [1; 2]); (6%nat, [2; 0])].

Lemma Hc_wf : wf_history Hc.
Proof.
  apply (phased_wf [(3%nat, mk hc0); (4%nat, mk hc1)] (mk hc2)).
  intros g [<- | [<- | [<- | []]]]; apply (shape_wf _ places_c); reflexivity.
Qed.

Lemma Hc_fullpath : fullpath_stable Hc.
Proof.
  apply (phased_fullpath [(3%nat, mk hc0); (4%nat, mk hc1)] (mk hc2)
           (fun n => match n with 1%nat => [1] | 2%nat => [2] | _ => [] end)).
  intros g [<- | [<- | [<- | []]]]; apply (fp_fullpath _ _ places_c); reflexivity.
Qed.

Lemma Hc_disciplined : disciplined Hc.
Proof.
  apply (phased_disciplined [(3%nat, mk hc0); (4%nat, mk hc1)] (mk hc2)).
  apply sorted3; (split; [|left; split; reflexivity]); intros n c Hc0; each_node 7 n (cell_le Hc0).
Qed.

Lemma Hc_stays_reachable : stays_reachable Hc.
Proof.
  apply (phased_stays_reachable [(3%nat, mk hc0); (4%nat, mk hc1)] (mk hc2)).
  apply sorted3; apply grows_reach_le; (split; [reflexivity|]);
    intros n c p cs b c' Hc0 Hk Hf; each_node 7 n (edge_stays Hc0 Hk Hf).
Qed.

Definition ec1 : sentry := {| e_node := 1%nat; e_pth := [1]; e_pre := []; e_cs := k1; e_idx := 0%nat; e_byte := 1;
                              e_child := 3%nat; e_word := 0; e_at := 0%nat |}.
Definition ec0 : sentry := {| e_node := 0%nat; e_pth := []; e_pre := []; e_cs := k0; e_idx := 0%nat; e_byte := 1;
                              e_child := 1%nat; e_word := 0; e_at := 0%nat |}.
Definition posc : ipos := {| ip_leaf := 3%nat; ip_key := [1; 1]; ip_val := [110]; ip_word := 0; ip_at := 0%nat;
                             ip_stack := [ec1; ec0] |}.
Definition ec2 : sentry := {| e_node := 2%nat; e_pth := [2]; e_pre := []; e_cs := k2'; e_idx := 0%nat; e_byte := 0;
                              e_child := 6%nat; e_word := 4; e_at := 5%nat |}.
Definition ic2 : ihop := {| ih_e := ec2; ih_check := 7%nat |}.
Definition ac : hop := {| h_node := 6%nat; h_lock := 6%nat; h_check := 9%nat; h_word := 0; h_cont := CLeaf [2; 0] [200] |}.

Lemma posc_ok : pos_ok Hc posc.
Proof.
  unfold pos_ok. cbn [ip_word ip_at ip_leaf ip_key ip_val ip_stack posc].
  split; [reflexivity|]. split; [cell_now|]. split; [|split; [|split; [discriminate|]]].
  - constructor; [|constructor; [|constructor]].
    + split; [split; [reflexivity | split; [cell_now | reflexivity]] | apply (reach_by _ 0%nat [1]); reflexivity].
    + split; [split; [reflexivity | split; [cell_now | reflexivity]] | apply reach_root; reflexivity].
  - repeat constructor.
  - cbn. repeat split; reflexivity.
Qed.

Lemma stepc : next_some Hc posc 1 [(ec1, 2%nat)] ec0 8 2 2%nat [] [ic2] ac [2; 0] [2; 0] [200].
Proof.
  split.
  - split; [cbn; lia | cell_now].
  - split; try reflexivity.
    + constructor; [|constructor]. split; [cbn; lia | split; [cell_now | reflexivity]].
    + cbn. lia.
    + cell_now.
    + apply d_step; [| cbn; lia | reflexivity | reflexivity |].
      * split; [split; [reflexivity | split; [cell_now | reflexivity]] | split; [cbn; lia | cell_now]].
      * apply d_last; [hop_now | cbn; lia | reflexivity].
    + constructor; [reflexivity | constructor].
Qed.

Lemma stepc_interval : wquery Hc 1 6 true [1; 1] (Some ([2; 0], [200])).
Proof.
  destruct (next_succ_some Hc posc 1 _ _ _ _ _ _ _ _ _ _ _ Hc_disciplined Hc_stays_reachable Hc_fullpath Hc_wf
              posc_ok stepc) as (_ & Q & _). exact Q.
Qed.

Lemma has12_late : forall T, (4 <= T)%nat -> has_key (Hc T) [1; 2].
Proof.
  intros T HT. exists [120], 5%nat, [1; 2]. eexists.
  assert (E : Hc T = mk hc2).
  { unfold Hc. destruct (Nat.ltb_spec T 3); [lia|]. destruct (Nat.ltb_spec T 4); [lia | reflexivity]. }
  rewrite E. split; [apply (reach_by _ 0%nat [1; 2]); reflexivity | split; reflexivity].
Qed.

Lemma no20_early : forall T v, (T < 4)%nat -> ~ entry (Hc T) [2; 0] v.
Proof.
  intros T v HT E. assert (Hc T = mk hc0 \/ Hc T = mk hc1) as [Eq | Eq].
  { unfold Hc. destruct (T <? 3)%nat; [left; reflexivity|]. destruct (Nat.ltb_spec T 4); [right; reflexivity | lia]. }
  - rewrite Eq in E. exact (not_key_absent [2; 0] (mk hc0) places_c eq_refl eq_refl (ex_intro _ v E)).
  - rewrite Eq in E. exact (not_key_absent [2; 0] (mk hc1) places_c eq_refl eq_refl (ex_intro _ v E)).
Qed.

Theorem step_not_atomic : forall T, ~ succ_query (Hc T) [1; 1] (Some ([2; 0], [200])).
Proof.
  intros T (_ & E & G). destruct (le_lt_dec 4 T) as [Hge | Hlt].
  - apply (G [1; 2]); [reflexivity | reflexivity | apply has12_late; exact Hge].
  - exact (no20_early T _ Hlt E).
Qed.

Print Assumptions step_not_atomic.
