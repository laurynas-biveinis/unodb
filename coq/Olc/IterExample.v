(** C09c / C09d, non-vacuity: a concrete history in which a writer inserts a
    key into another part of the tree while a scan is under way, with the
    conditions of the theorems (disciplined, W1, W2, tree shape) proved and
    the observations of a forward and of a reverse scan exhibited.

    Tree: root 0 = {1 -> node 1, 2 -> node 2}, node 1 = {1 -> leaf 3 "11",
    3 -> leaf 4 "13"}, node 2 = {7 -> leaf 5 "27"}.  At moment 14 a writer
    has inserted "29": node 2 = {7 -> leaf 5, 9 -> leaf 6} with a new word. *)
From Coq Require Import List ZArith Bool Arith Lia Sorted.
From Unodb Require Import Base.Lex Lock.LockModel Olc.ReadModel Olc.IterModel Olc.IterRevModel Olc.ExampleKit.
Import ListNotations.
Local Open Scope Z_scope.

Definition cs0 : list (Z * nid) := [(1, 1%nat); (2, 2%nat)].
Definition cs1 : list (Z * nid) := [(1, 3%nat); (3, 4%nat)].
Definition cs2 : list (Z * nid) := [(7, 5%nat)].
Definition cs2' : list (Z * nid) := [(7, 5%nat); (9, 6%nat)].

Definition heap0 (n : nid) : option cell :=
  match n with
  | 0%nat => Some {| word := 0; cont := CInode [] cs0 |}
  | 1%nat => Some {| word := 0; cont := CInode [] cs1 |}
  | 2%nat => Some {| word := 0; cont := CInode [] cs2 |}
  | 3%nat => Some {| word := 0; cont := CLeaf [1; 1] [110] |}
  | 4%nat => Some {| word := 0; cont := CLeaf [1; 3] [130] |}
  | 5%nat => Some {| word := 0; cont := CLeaf [2; 7] [270] |}
  | _ => None
  end.

Definition heap1 (n : nid) : option cell :=
  match n with
  | 2%nat => Some {| word := 4; cont := CInode [] cs2' |}
  | 6%nat => Some {| word := 0; cont := CLeaf [2; 9] [290] |}
  | _ => heap0 n
  end.

Definition g0 : gstate := {| hp := heap0; root_word := 0; root := Some 0%nat |}.
Definition g1 : gstate := {| hp := heap1; root_word := 0; root := Some 0%nat |}.
Definition tw : nat := 14.
Definition Hx : history := fun t => if (t <? tw)%nat then g0 else g1.

Definition places_x : list (nid * list Z) :=
  [(0%nat, []); (1%nat, [1]); (2%nat, [2]); (3%nat, [1; 1]); (4%nat, [1; 3]); (5%nat, [2; 7]); (6%nat, [2; 9])].

Lemma Hx_wf : wf_history Hx.
Proof. apply (phased_wf [(tw, g0)] g1). intros g [<- | [<- | []]]; apply (shape_wf _ places_x); reflexivity. Qed.

Lemma Hx_fullpath : fullpath_stable Hx.
Proof.
  apply (phased_fullpath [(tw, g0)] g1 (fun n => match n with 1%nat => [1] | 2%nat => [2] | _ => [] end)).
  intros g [<- | [<- | []]]; apply (fp_fullpath _ _ places_x); reflexivity.
Qed.

Lemma Hx_disciplined : disciplined Hx.
Proof.
  apply (phased_disciplined [(tw, g0)] g1). apply sorted2. split; [|left; split; reflexivity].
  intros n c Hc. each_node 7 n (cell_le Hc).
Qed.

Lemma Hx_stays_reachable : stays_reachable Hx.
Proof.
  apply (phased_stays_reachable [(tw, g0)] g1). apply sorted2. apply grows_reach_le. split; [reflexivity|].
  intros n c p cs b c' Hc Hk Hf. each_node 7 n (edge_stays Hc Hk Hf).
Qed.

(** forward scan: seek [1;0], then two try_next *)

Definition lo_x : key := [1; 0].
Definition e0 : sentry := {| e_node := 0%nat; e_pth := []; e_pre := []; e_cs := cs0; e_idx := 0%nat; e_byte := 1;
                             e_child := 1%nat; e_word := 0; e_at := 1%nat |}.
Definition i0 : ihop := {| ih_e := e0; ih_check := 4%nat |}.
Definition a1 : hop := {| h_node := 1%nat; h_lock := 3%nat; h_check := 7%nat; h_word := 0; h_cont := CInode [] cs1 |}.
Definition en : sentry := {| e_node := 1%nat; e_pth := [1]; e_pre := []; e_cs := cs1; e_idx := 0%nat; e_byte := 1;
                             e_child := 3%nat; e_word := 0; e_at := 3%nat |}.
Definition a2 : hop := {| h_node := 3%nat; h_lock := 5%nat; h_check := 6%nat; h_word := 0; h_cont := CLeaf [1; 1] [110] |}.
Definition a3 : hop := {| h_node := 4%nat; h_lock := 9%nat; h_check := 10%nat; h_word := 0; h_cont := CLeaf [1; 3] [130] |}.
Definition e2 : sentry := {| e_node := 2%nat; e_pth := [2]; e_pre := []; e_cs := cs2'; e_idx := 0%nat; e_byte := 7;
                             e_child := 5%nat; e_word := 4; e_at := 15%nat |}.
Definition i2 : ihop := {| ih_e := e2; ih_check := 18%nat%nat |}.
Definition a4 : hop := {| h_node := 5%nat; h_lock := 17%nat; h_check := 19%nat; h_word := 0; h_cont := CLeaf [2; 7] [270] |}.

Lemma x_seek_down : seek_down Hx lo_x 0 0 2 0%nat [i0] a1 [1].
Proof.
  split.
  - split; try reflexivity; [lia|].
    apply d_step; [| cbn; lia | reflexivity | reflexivity |].
    + split; [split; [reflexivity | split; [cell_now | reflexivity]] | split; [cbn; lia | cell_now]].
    + apply d_last; [hop_now | cbn; lia | reflexivity].
  - constructor; [|constructor]. exists [0]. reflexivity.
Qed.

Lemma x_seek_gte : seek_gte lo_x a1 [1] en.
Proof.
  exists [], 0. cbn. repeat split; try reflexivity; try lia.
Qed.

Definition pos0 : ipos := desc_pos [] a2 [1; 1] [110] (en :: seek_stack [i0]).

Lemma x_seek_result : seek_result Hx lo_x 0 3 5 pos0.
Proof.
  apply (sr_gte Hx lo_x 0%nat 0 2%nat 0%nat [i0] a1 [1] en [] a2 [1; 1] [1; 1] [110] x_seek_down x_seek_gte).
  - apply d_last; [hop_now | cbn; lia | reflexivity].
  - constructor.
  - reflexivity.
Qed.

Definition pos1 : ipos := next_pos en 3 4%nat [e0] [] a3 [1; 3] [130].

Lemma x_next1 : next_some Hx pos0 8 [] en 11 3 4%nat [e0] [] a3 [1; 3] [1; 3] [130].
Proof.
  split.
  - split; [cbn; lia | cell_now].
  - split; try reflexivity.
    + constructor.
    + cbn. lia.
    + cell_now.
    + apply d_last; [hop_now | cbn; lia | reflexivity].
    + constructor.
Qed.

Definition pos2 : ipos := next_pos e0 2 2%nat [] [i2] a4 [2; 7] [270].

Lemma x_next2 : next_some Hx pos1 12 [(advance en 3 4%nat, 13%nat)] e0 16 2 2%nat [] [i2] a4 [2; 7] [2; 7] [270].
Proof.
  split.
  - split; [cbn; lia | cell_now].
  - split; try reflexivity.
    + constructor; [|constructor]. split; [cbn; lia | split; [cell_now | reflexivity]].
    + cbn. lia.
    + cell_now.
    + apply d_step; [| cbn; lia | reflexivity | reflexivity |].
      * split; [split; [reflexivity | split; [cell_now | reflexivity]] | split; [cbn; lia | cell_now]].
      * apply d_last; [hop_now | cbn; lia | reflexivity].
    + constructor; [reflexivity | constructor].
Qed.

Definition ds_x : list delivery :=
  [(3%nat, 5%nat, [1; 1], [110]); (8%nat, 9%nat, [1; 3], [130]); (12%nat, 17%nat, [2; 7], [270])].

Lemma x_scan : iter_scan Hx 0 lo_x ds_x None.
Proof.
  unfold ds_x.
  apply (is_seek Hx 0%nat lo_x 0%nat 3%nat 5%nat pos0 _ None); [lia | exact x_seek_result|].
  apply (ir_next Hx 5%nat pos0 8%nat [] en 11%nat 3 4%nat [e0] [] a3 [1; 3] [1; 3] [130] _ None); [lia | exact x_next1|].
  apply (ir_next Hx 9%nat pos1 12%nat [(advance en 3 4%nat, 13%nat)] e0 16%nat 2 2%nat [] [i2] a4 [2; 7] [2; 7] [270] _ None); [lia | exact x_next2|].
  apply ir_stop.
Qed.

Lemma x_writer : ~ has_key (Hx 13%nat) [2; 9] /\ has_key (Hx 14%nat) [2; 9].
Proof.
  split.
  - exact (not_key_absent [2; 9] g0 places_x eq_refl eq_refl).
  - exists [290], 6%nat, [2; 9]. eexists. split; [|split; reflexivity].
    apply (reach_by g1 0%nat [2; 9]); reflexivity.
Qed.

(** reverse scan over the same history:
    - seek (fwd = false) to [3;0] (moments 0..5): the root has no child for
      byte 3, lte_key_byte finds (2 -> node 2), right-most descent: "27";
    - prior (8..12): the entry of node 2 is re-validated at 9 and popped, the
      root entry moves from index 1 to 0, right-most descent through node 1: "13";
    - the writer inserts "29" at moment 14: below the bound [3;0], above
      everything delivered so far;
    - prior (15..16): the entry of node 1 moves from index 1 to 0: "11";
    - prior (19): both entries have index 0 and are popped: end. *)
Definition hi_x : key := [3; 0].

Definition ra0 : hop := {| h_node := 0%nat; h_lock := 1%nat; h_check := 4%nat; h_word := 0; h_cont := CInode [] cs0 |}.
Definition ren : sentry := {| e_node := 0%nat; e_pth := []; e_pre := []; e_cs := cs0; e_idx := 1%nat; e_byte := 2;
                              e_child := 2%nat; e_word := 0; e_at := 1%nat |}.
Definition re2 : sentry := {| e_node := 2%nat; e_pth := [2]; e_pre := []; e_cs := cs2; e_idx := 0%nat; e_byte := 7;
                              e_child := 5%nat; e_word := 0; e_at := 3%nat |}.
Definition ri2 : ihop := {| ih_e := re2; ih_check := 6%nat |}.
Definition ra5 : hop := {| h_node := 5%nat; h_lock := 5%nat; h_check := 7%nat; h_word := 0; h_cont := CLeaf [2; 7] [270] |}.
Definition re1 : sentry := {| e_node := 1%nat; e_pth := [1]; e_pre := []; e_cs := cs1; e_idx := 1%nat; e_byte := 3;
                              e_child := 4%nat; e_word := 0; e_at := 10%nat |}.
Definition ri1 : ihop := {| ih_e := re1; ih_check := 13%nat |}.
Definition ra4 : hop := {| h_node := 4%nat; h_lock := 12%nat; h_check := 13%nat; h_word := 0; h_cont := CLeaf [1; 3] [130] |}.
Definition ra3 : hop := {| h_node := 3%nat; h_lock := 16%nat; h_check := 18%nat; h_word := 0; h_cont := CLeaf [1; 1] [110] |}.

Lemma rx_seek_down : seek_down Hx hi_x 0 0 2 0%nat [] ra0 [].
Proof.
  split.
  - split; try reflexivity; [lia|]. apply d_last; [hop_now | cbn; lia | reflexivity].
  - constructor.
Qed.

Lemma rx_seek_lte : seek_lte hi_x ra0 [] ren.
Proof.
  exists [0], 3. cbn. repeat split; try reflexivity; try lia.
  intros j bj cj Hj Hn. destruct j as [|[|j]]; try lia. destruct j; discriminate.
Qed.

Definition rpos0 : ipos := desc_pos [ri2] ra5 [2; 7] [270] (ren :: seek_stack []).

Lemma rx_seek_result : rseek_result Hx hi_x 0 1 5 rpos0.
Proof.
  apply (rs_lte Hx hi_x 0%nat 0 2%nat 0%nat [] ra0 [] ren [ri2] ra5 [2; 7] [2; 7] [270] rx_seek_down rx_seek_lte).
  - apply d_step; [| cbn; lia | reflexivity | reflexivity |].
    + split; [split; [reflexivity | split; [cell_now | reflexivity]] | split; [cbn; lia | cell_now]].
    + apply d_last; [hop_now | cbn; lia | reflexivity].
  - constructor; [reflexivity | constructor].
  - reflexivity.
Qed.

Definition rpos1 : ipos := prior_pos ren 1 1%nat [] [ri1] ra4 [1; 3] [130].

Lemma rx_prior1 : prior_some Hx rpos0 8 [(re2, 9%nat)] ren 11 1 1%nat [] [ri1] ra4 [1; 3] [1; 3] [130].
Proof.
  split.
  - split; [cbn; lia | cell_now].
  - split; try reflexivity.
    + constructor; [|constructor]. split; [cbn; lia | split; [cell_now | reflexivity]].
    + cbn. lia.
    + cell_now.
    + cbn. lia.
    + apply d_step; [| cbn; lia | reflexivity | reflexivity |].
      * split; [split; [reflexivity | split; [cell_now | reflexivity]] | split; [cbn; lia | cell_now]].
      * apply d_last; [hop_now | cbn; lia | reflexivity].
    + constructor; [reflexivity | constructor].
Qed.

Definition rpos2 : ipos := prior_pos re1 1 3%nat [retreat ren 1 1%nat] [] ra3 [1; 1] [110].

Lemma rx_prior2 : prior_some Hx rpos1 15 [] re1 17 1 3%nat [retreat ren 1 1%nat] [] ra3 [1; 1] [1; 1] [110].
Proof.
  split.
  - split; [cbn; lia | cell_now].
  - split; try reflexivity.
    + constructor.
    + cbn. lia.
    + cell_now.
    + cbn. lia.
    + apply d_last; [hop_now | cbn; lia | reflexivity].
    + constructor.
Qed.

Lemma rx_prior3 : prior_none Hx rpos2 19 [(retreat re1 1 3%nat, 20%nat); (retreat ren 1 1%nat, 21%nat)].
Proof.
  split.
  - split; [cbn; lia | cell_now].
  - split; [reflexivity|].
    constructor; [|constructor; [|constructor]]; (split; [cbn; lia | split; [cell_now | reflexivity]]).
Qed.

Definition rds_x : list delivery :=
  [(1%nat, 5%nat, [2; 7], [270]); (8%nat, 12%nat, [1; 3], [130]); (15%nat, 16%nat, [1; 1], [110])].

Lemma rx_scan : riter_scan Hx 0 (UKey false hi_x) rds_x (Some 19%nat).
Proof.
  unfold rds_x.
  apply (ris_seek Hx 0%nat hi_x 0%nat 1%nat 5%nat rpos0 _ (Some 19%nat)); [lia | exact rx_seek_result|].
  apply (rir_prior Hx 5%nat rpos0 8%nat [(re2, 9%nat)] ren 11%nat 1 1%nat [] [ri1] ra4 [1; 3] [1; 3] [130] _ (Some 19%nat));
    [lia | exact rx_prior1|].
  apply (rir_prior Hx 12%nat rpos1 15%nat [] re1 17%nat 1 3%nat [retreat ren 1 1%nat] [] ra3 [1; 1] [1; 1] [110] _ (Some 19%nat));
    [lia | exact rx_prior2|].
  change (Some 19%nat) with (Some (end_moment rpos2 19%nat)).
  eapply (rir_end Hx 16%nat rpos2 19%nat); [lia | exact rx_prior3].
Qed.

Lemma rx_writer_below : below (UKey false hi_x) [2; 9].
Proof. cbn. unfold lex_le. cbn. discriminate. Qed.
