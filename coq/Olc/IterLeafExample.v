(** C09d, non-vacuity of the root-leaf case: the root pointer points to the
    leaf "11" (node 1); at moment 3 a writer inserts "12": leaf split at the
    root slot - a new inner node 0 with key prefix [1] and children
    {1 -> leaf 1 (moved down, untouched), 2 -> leaf 2 "12"} is published
    through the root pointer, whose lock word goes from 0 to 4.

    A forward scan (try_first at moments 0..1, try_next at 5) and a reverse
    scan (try_last, try_prior) over this history both deliver "11" and end:
    try_next / try_prior re-validate the untouched leaf at moment 5, pop it
    and find the stack empty.  The end is the answer of the one-entry tree
    of moment 1; it is NOT the answer of the tree of moment 5. *)
From Coq Require Import List ZArith Bool Arith Lia Sorted.
From Unodb Require Import Base.Lex Lock.LockModel Olc.ReadModel Olc.IterModel Olc.ExampleKit Olc.IterExample
  Olc.IterRevModel Olc.IterLeafModel.
Import ListNotations.
Local Open Scope Z_scope.

Definition csl : list (Z * nid) := [(1, 1%nat); (2, 2%nat)].

Definition lheap0 (n : nid) : option cell :=
  match n with
  | 1%nat => Some {| word := 0; cont := CLeaf [1; 1] [110] |}
  | _ => None
  end.

Definition lheap1 (n : nid) : option cell :=
  match n with
  | 0%nat => Some {| word := 0; cont := CInode [1] csl |}
  | 1%nat => Some {| word := 0; cont := CLeaf [1; 1] [110] |}
  | 2%nat => Some {| word := 0; cont := CLeaf [1; 2] [120] |}
  | _ => None
  end.

Definition lg0 : gstate := {| hp := lheap0; root_word := 0; root := Some 1%nat |}.
Definition lg1 : gstate := {| hp := lheap1; root_word := 4; root := Some 0%nat |}.
Definition ltw : nat := 3.
Definition Hl : history := fun t => if (t <? ltw)%nat then lg0 else lg1.

Definition places_l0 : list (nid * list Z) := [(1%nat, [])].
Definition places_l1 : list (nid * list Z) := [(0%nat, []); (1%nat, [1; 1]); (2%nat, [1; 2])].

Lemma Hl_wf : wf_history Hl.
Proof.
  apply (phased_wf [(ltw, lg0)] lg1).
  intros g [<- | [<- | []]]; [apply (shape_wf _ places_l0) | apply (shape_wf _ places_l1)]; reflexivity.
Qed.

Lemma Hl_fullpath : fullpath_stable Hl.
Proof.
  apply (phased_fullpath [(ltw, lg0)] lg1 (fun n => [1])).
  intros g [<- | [<- | []]]; [apply (fp_fullpath _ _ places_l0) | apply (fp_fullpath _ _ places_l1)]; reflexivity.
Qed.

Lemma Hl_disciplined : disciplined Hl.
Proof.
  apply (phased_disciplined [(ltw, lg0)] lg1). apply sorted2. split; [|right; cbn; lia].
  intros n c Hc. each_node 2 n (cell_le Hc).
Qed.

(** the leaf moves from the empty path to [1; 1] *)
Lemma Hl_stays_reachable : stays_reachable Hl.
Proof.
  apply (phased_stays_reachable [(ltw, lg0)] lg1). apply sorted2. intros n pth R.
  destruct (closed_reach lg0 places_l0 eq_refl n pth R) as [E | []]. injection E as <- <-.
  exists [1; 1]. apply (reach_by lg1 0%nat [1]); reflexivity.
Qed.

Definition al : hop := {| h_node := 1%nat; h_lock := 1%nat; h_check := 2%nat; h_word := 0; h_cont := CLeaf [1; 1] [110] |}.
Definition posl : ipos := seek_pos [] al [1; 1] [110].

Lemma l_root_down : root_down Hl 0 0 2 1%nat [] al [].
Proof. split; try reflexivity; [lia|]. apply d_last; [hop_now | cbn; lia | reflexivity]. Qed.

Lemma l_first : first_down Hl 0 0 2 1%nat [] al [] [1; 1] [110].
Proof. split; [exact l_root_down | split; [constructor | reflexivity]]. Qed.

Lemma l_last : last_down Hl 0 0 2 1%nat [] al [] [1; 1] [110].
Proof. split; [exact l_root_down | split; [constructor | reflexivity]]. Qed.

Lemma l_leaf_again : leaf_again Hl posl 5.
Proof. split; [cbn; lia | cell_now]. Qed.

Lemma l_next_none : next_none Hl posl 5 [].
Proof. split; [exact l_leaf_again | split; [reflexivity | constructor]]. Qed.

Lemma l_prior_none : prior_none Hl posl 5 [].
Proof. split; [exact l_leaf_again | split; [reflexivity | constructor]]. Qed.

Lemma l_leafpos : leafpos_ok Hl posl.
Proof. split; [reflexivity | split; [cell_now | split; reflexivity]]. Qed.

Lemma l_scan_fwd : iter_scan0 Hl 0 [] [(0%nat, 1%nat, [1; 1], [110])] (Some 1%nat).
Proof.
  apply (is0_first Hl 0%nat 0%nat 0 2%nat 1%nat [] al [] [1; 1] [110] [] (Some 1%nat)); [lia | exact l_first|].
  change (Some 1%nat) with (Some (end_moment posl 5%nat)).
  eapply (ir0_end Hl 1%nat posl 5%nat); [lia | exact l_next_none].
Qed.

Lemma l_scan_rev : riter_scan Hl 0 UInf [(0%nat, 1%nat, [1; 1], [110])] (Some 1%nat).
Proof.
  apply (ris_last Hl 0%nat 0%nat 0 2%nat 1%nat [] al [] [1; 1] [110] [] (Some 1%nat)); [lia | exact l_last|].
  change (Some 1%nat) with (Some (end_moment posl 5%nat)).
  eapply (rir_end Hl 1%nat posl 5%nat); [lia | exact l_prior_none].
Qed.

Lemma l_has_12 : has_key (Hl 5%nat) [1; 2].
Proof.
  exists [120], 2%nat, [1; 2]. eexists. split; [apply (reach_by lg1 0%nat [2]); reflexivity | split; reflexivity].
Qed.

Lemma l_end_not_at_5 : ~ succ_query (Hl 5%nat) (ip_key posl) None.
Proof.
  intros Q. apply (Q [1; 2]); [|exact l_has_12]. cbn. reflexivity.
Qed.

Lemma l_writer : ~ has_key (Hl 2%nat) [1; 2] /\ has_key (Hl 3%nat) [1; 2].
Proof.
  split.
  - exact (not_key_absent [1; 2] lg0 places_l0 eq_refl eq_refl).
  - exists [120], 2%nat, [1; 2]. eexists. split; [apply (reach_by lg1 0%nat [2]); reflexivity | split; reflexivity].
Qed.
