(** C09d, second part: the FORWARD iterator of Olc/IterModel.v extended to a
    root pointer that points to a leaf (a one-entry tree) or is null (the
    empty tree).  Definitions only; proofs in Olc/IterScan.v.  (The reverse
    model, Olc/IterRevModel.v, has these cases built in.)

    olc_art.hpp: try_first / try_left_most_traversal on a root leaf push
    only the leaf; try_seek's loop reaches the leaf with an empty stack and
    compares; try_next pops the re-validated leaf, "falls through loop if
    just a root leaf since stack now empty" and reports the end.  A position
    on a root leaf is [leafpos_ok] of Olc/IterRevModel.v; [next_none] with no
    pops is exactly that try_next. *)
From Coq Require Import List ZArith Bool Arith Sorted.
From Unodb Require Import Base.Lex Lock.LockModel Olc.ReadModel Olc.IterModel Olc.IterRevModel.
Import ListNotations.
Local Open Scope Z_scope.

(** forward seek, including the search phase ending on the root leaf *)
Inductive seek_result0 (H : history) (lo : key) : nat -> nat -> nat -> ipos -> Prop :=
| sr0_inner : forall rl t1 t2 pos, seek_result H lo rl t1 t2 pos -> seek_result0 H lo rl t1 t2 pos
| sr0_leaf_hit : forall rl rw rc n0 a q k v,
    seek_down H lo rl rw rc n0 [] a q -> h_cont a = CLeaf k v -> lex_le lo k ->
    seek_result0 H lo rl (h_lock a) (h_lock a) (seek_pos [] a k v).

(** ... the root leaf is smaller than lo: try_next pops it, the stack is
    empty; decided at the moment the leaf was read-locked *)
Inductive seek_end0 (H : history) (lo : key) : nat -> nat -> Prop :=
| se0_inner : forall rl T, seek_end H lo rl T -> seek_end0 H lo rl T
| se0_leaf_lt : forall rl rw rc n0 a q kr vr t0 pops,
    seek_down H lo rl rw rc n0 [] a q -> h_cont a = CLeaf kr vr -> lex_lt kr lo ->
    next_none H (seek_pos [] a kr vr) t0 pops -> seek_end0 H lo rl (h_lock a).

(** runs of [next] from positions that may be on a root leaf ([end_moment]:
    Olc/IterRevModel.v) *)
Inductive iter_run0 (H : history) : nat -> ipos -> list delivery -> option nat -> Prop :=
| ir0_stop : forall t pos, iter_run0 H t pos [] None
| ir0_end : forall t pos t0 pops, (t <= t0)%nat -> next_none H pos t0 pops ->
    iter_run0 H t pos [] (Some (end_moment pos t0))
| ir0_end_seek : forall t pos rl T, (t <= rl)%nat -> seek_end0 H (ip_key pos) rl T -> iter_run0 H t pos [] (Some T)
| ir0_end_seek_eq : forall t pos rl t1 t2 pos1 t0 pops, (t <= rl)%nat ->
    seek_result0 H (ip_key pos) rl t1 t2 pos1 -> ip_key pos1 = ip_key pos -> (t2 <= t0)%nat ->
    next_none H pos1 t0 pops -> iter_run0 H t pos [] (Some (end_moment pos1 t0))
| ir0_next : forall t pos t0 pops pv tc b' c' rest hs a q k' v' ds e, (t <= t0)%nat ->
    next_some H pos t0 pops pv tc b' c' rest hs a q k' v' ->
    iter_run0 H (h_lock a) (next_pos pv b' c' rest hs a k' v') ds e ->
    iter_run0 H t pos ((t0, h_lock a, k', v') :: ds) e
| ir0_seek_gt : forall t pos rl t1 t2 pos1 ds e, (t <= rl)%nat ->
    seek_result0 H (ip_key pos) rl t1 t2 pos1 -> ip_key pos1 <> ip_key pos ->
    iter_run0 H t2 pos1 ds e ->
    iter_run0 H t pos ((t1, t2, ip_key pos1, ip_val pos1) :: ds) e
| ir0_seek_eq : forall t pos rl t1 t2 pos1 t0 pops pv tc b' c' rest hs a q k' v' ds e, (t <= rl)%nat ->
    seek_result0 H (ip_key pos) rl t1 t2 pos1 -> ip_key pos1 = ip_key pos -> (t2 <= t0)%nat ->
    next_some H pos1 t0 pops pv tc b' c' rest hs a q k' v' ->
    iter_run0 H (h_lock a) (next_pos pv b' c' rest hs a k' v') ds e ->
    iter_run0 H t pos ((t0, h_lock a, k', v') :: ds) e.

(** a whole forward scan: scan_from / scan_range start with [seek lo];
    scan(fn) starts with try_first (bound: the empty key, the least one) *)
Inductive iter_scan0 (H : history) : nat -> key -> list delivery -> option nat -> Prop :=
| is0_end : forall t lo rl T, (t <= rl)%nat -> seek_end0 H lo rl T -> iter_scan0 H t lo [] (Some T)
| is0_seek : forall t lo rl t1 t2 pos ds e, (t <= rl)%nat -> seek_result0 H lo rl t1 t2 pos ->
    iter_run0 H t2 pos ds e -> iter_scan0 H t lo ((t1, t2, ip_key pos, ip_val pos) :: ds) e
| is0_first_empty : forall t rl, (t <= rl)%nat -> root (H rl) = None -> iter_scan0 H t [] [] (Some rl)
| is0_first : forall t rl rw rc n0 hs a q k v ds e, (t <= rl)%nat -> first_down H rl rw rc n0 hs a q k v ->
    iter_run0 H (h_lock a) (seek_pos hs a k v) ds e ->
    iter_scan0 H t [] ((rl, h_lock a, k, v) :: ds) e.
