(** C09c / C09d: proofs for Olc/IterModel.v and Olc/IterRevModel.v: one step
    of the iterator (try_next, try_prior) is an interval query.  Stated over
    the direction [dir] of Olc/IterAux.v; the forward instances are at the end
    of this file, the reverse ones in Olc/IterRevProofs.v.

    WHY NOT AN ATOMIC QUERY.  Stack (top first): N2 = {'1' -> leaf "aa1"},
    N1 = {'a' -> N2, 'b' -> N3}, root = {'a' -> N1}; N3 = {'5' -> "ab5"}.
    try_next from "aa1": the leaf and then N2 are re-validated (N2 has no
    further child) and popped.  Now writer A inserts "aa2" (changes N2 only,
    which is not looked at again), then writer B inserts "ab0" (changes N3 only).
    Then N1 is re-validated (unchanged), its next child is N3, and the
    left-most descent delivers "ab0".  There is no moment at which "ab0" is
    the successor of "aa1": before B's insert it is not in the tree, after it
    "aa2" is.  try_first / the left-most descent alone is not atomic either
    (a smaller child can be added to a hop whose section is already closed
    while a deeper hop still has a smaller leaf that is removed before the
    reader arrives there).  What holds is the interval query [wquery]: the
    delivered entry is in the tree at the lock moment of its leaf, and every
    key strictly between is absent at one of the moments
    { t0 (the leaf re-validation), the lock moments of the descent hops }.

    (Olc/IterCounter.v checks this counterexample in a slightly smaller tree.) *)
From Coq Require Import List ZArith Lia.
From Unodb Require Import Olc.ReadModel Olc.ReadProofs Olc.IterModel Olc.IterAux.
Import ListNotations.
Local Open Scope Z_scope.

Lemma entry_below : forall g n pth x v, wf_state g -> reach g n pth -> entry g x v -> is_pre pth x ->
  exists L q cl, desc g n pth L q /\ hp g L = Some cl /\ cont cl = CLeaf x v /\ is_pre q x.
Proof.
  intros g n pth x v W R (L & q & cl & RL & HcL & HkL) P.
  pose proof (wf_leaf g W _ _ _ _ _ RL HcL HkL) as PL.
  exists L, q, cl. split; [|auto].
  destruct (le_lt_dec (length pth) (length q)) as [Hle|Hgt]; [exact (reach_chain g x _ _ _ _ R RL P PL Hle)|].
  pose proof (reach_chain g x _ _ _ _ RL R PL P ltac:(lia)) as D.
  destruct (desc_head _ _ _ _ _ D) as [[-> ->] | (c0 & p0 & cs0 & b0 & c0' & A1 & A2 & _)]; [apply desc_refl|].
  rewrite HcL in A1. injection A1 as <-. congruence.
Qed.

Lemma through_inode : forall g n pth c p cs x v, wf_state g ->
  reach g n pth -> hp g n = Some c -> cont c = CInode p cs -> entry g x v -> is_pre pth x ->
  exists b c' r, find_child b cs = Some c' /\ x = pth ++ p ++ b :: r.
Proof.
  intros g n pth c p cs x v W R Hc Hk E P.
  destruct (entry_below g n pth x v W R E P) as (L & q & cl & D & HcL & HkL & [r ->]).
  destruct (desc_head _ _ _ _ _ D) as [[-> ->] | (c0 & p0 & cs0 & b0 & c0' & A1 & A2 & A3 & A4)]; [congruence|].
  rewrite Hc in A1. injection A1 as <-. rewrite Hk in A2. injection A2 as <- <-.
  destruct (desc_ext _ _ _ _ _ A4) as [e ->].
  exists b0, c0', (e ++ r). split; [exact A3|]. rewrite <- !app_assoc. reflexivity.
Qed.

Lemma through_leaf : forall g n pth c k v x vx, wf_state g ->
  reach g n pth -> hp g n = Some c -> cont c = CLeaf k v -> entry g x vx -> is_pre pth x ->
  x = k /\ vx = v.
Proof.
  intros g n pth c k v x vx W R Hc Hk E P.
  destruct (entry_below g n pth x vx W R E P) as (L & q & cl & D & HcL & HkL & _).
  destruct (desc_head _ _ _ _ _ D) as [[-> _] | (c0 & p0 & cs0 & b0 & c0' & A1 & A2 & _)].
  - rewrite Hc in HcL. injection HcL as <-. rewrite Hk in HkL. injection HkL as -> ->. auto.
  - rewrite Hc in A1. injection A1 as <-. congruence.
Qed.

Lemma entry_leaf_unique : forall g k1 v1 k2 v2, wf_state g ->
  entry g k1 v1 -> entry g k2 v2 -> is_pre k1 k2 -> k1 = k2 /\ v1 = v2.
Proof.
  intros g k1 v1 k2 v2 W (L & q & cl & RL & HcL & HkL) E2 [r ->].
  pose proof (wf_leaf g W _ _ _ _ _ RL HcL HkL) as [r1 ->].
  destruct (through_leaf g L q cl _ _ _ _ W RL HcL HkL E2) as [A B].
  - exists (r1 ++ r). rewrite app_assoc. reflexivity.
  - split; [symmetry; exact A | symmetry; exact B].
Qed.

Lemma rev_map_nonempty_path : forall (l : list sentry) e rest,
  exists e' l', l ++ e :: rest = e' :: l'.
Proof. intros [|x l] e rest; cbn; eauto. Qed.

Definition hop_of (e : sentry) (tc : nat) : hop :=
  {| h_node := e_node e; h_lock := e_at e; h_check := tc; h_word := e_word e;
     h_cont := CInode (e_pre e) (e_cs e) |}.

Definition valid_at (H : history) (e : sentry) (t : nat) : Prop :=
  (exists c, hp (H t) (e_node e) = Some c /\ word c = e_word e /\ cont c = CInode (e_pre e) (e_cs e)) /\
  reach (H t) (e_node e) (e_pth e).

Definition ihop_good (H : history) (i : ihop) : Prop :=
  sentry_ok H (ih_e i) /\ forall t, (e_at (ih_e i) <= t <= ih_check i)%nat -> valid_at H (ih_e i) t.

(** the subtree at path q holds no key of A at moment T0: known of the subtree
    the iterator is leaving, carried upwards over popped entries ([pop_floor]) *)
Definition floor (H : history) (T0 : nat) (A : key -> Prop) (q : list Z) : Prop :=
  forall x, A x -> is_pre q x -> ~ has_key (H T0) x.

(** a linked piece of the stack, top first *)
Fixpoint chain (n : nid) (q : list Z) (es : list sentry) : Prop :=
  match es with
  | [] => True
  | e :: es' => e_child e = n /\ e_cpath e = q /\ chain (e_node e) (e_pth e) es'
  end.

Fixpoint end_path (q : list Z) (es : list sentry) : list Z :=
  match es with [] => q | e :: es' => end_path (e_pth e) es' end.
Fixpoint end_node (n : nid) (es : list sentry) : nid :=
  match es with [] => n | e :: es' => end_node (e_node e) es' end.

(** an entry that is popped: [popped_ok] is the instance [Fwd], [rpopped_ok] of
    Olc/IterRevModel.v the instance [Rev] *)
Definition gpopped (d : dir) (H : history) (t0 : nat) (p : sentry * nat) : Prop :=
  (e_at (fst p) <= t0 <= snd p)%nat /\ word_again H (e_node (fst p)) (e_word (fst p)) (snd p) /\
  far d (fst p).

Lemma popped_ok_gpopped : forall H t0 p, popped_ok H t0 p = gpopped Fwd H t0 p.
Proof. reflexivity. Qed.

Definition exhausted_e (d : dir) (e : sentry) : Prop := taken e /\ far d e.

(** the loop of try_next / try_prior that ends with a descent: the fields of
    [up_some] ([Fwd], j = index + 1) and of [down_some] ([Rev], j = index - 1) *)
Record gloop (d : dir) (H : history) (st : list sentry) (t0 : nat) (pops : list (sentry * nat))
    (pv : sentry) (tc : nat) (j : nat) (b' : Z) (c' : nid) (rest : list sentry)
    (hs : list ihop) (a : hop) (q : list Z) (k' : key) (v' : val) : Prop := {
  gl_stack : st = map fst pops ++ pv :: rest;
  gl_pops : Forall (gpopped d H t0) pops;
  gl_pv_t : (e_at pv <= t0 <= tc)%nat;
  gl_pv_w : word_again H (e_node pv) (e_word pv) tc;
  gl_adj : dadj d (e_idx pv) j;
  gl_next : nth_error (e_cs pv) j = Some (b', c');
  gl_desc : descent H t0 tc c' (e_pth pv ++ e_pre pv ++ [b']) hs a q;
  gl_near : Forall (fun i => near d (ih_e i)) hs;
  gl_cont : h_cont a = CLeaf k' v' }.

Lemma up_some_loop : forall {H st t0 pops pv tc b' c' rest hs a q k' v'},
  up_some H st t0 pops pv tc b' c' rest hs a q k' v' ->
  gloop Fwd H st t0 pops pv tc (S (e_idx pv)) b' c' rest hs a q k' v'.
Proof. intros H st t0 pops pv tc b' c' rest hs a q k' v' [N1 N2 N3 N4 N5 N6 N7 N8]. split; try assumption. reflexivity. Qed.

Lemma gloop_stack_ne : forall {d H st t0 pops pv tc j b' c' rest hs a q k' v'},
  gloop d H st t0 pops pv tc j b' c' rest hs a q k' v' -> st <> [].
Proof. intros d H st t0 pops pv tc j b' c' rest hs a q k' v' [-> _ _ _ _ _ _ _ _]. destruct (map fst pops); discriminate. Qed.

Lemma linked_app : forall {es rest n q}, linked n q (es ++ rest) ->
  chain n q es /\ linked (end_node n es) (end_path q es) rest.
Proof.
  induction es as [|e es IH]; intros rest n q L; cbn in *.
  - split; [exact I | exact L].
  - destruct L as (A & B & L). destruct (IH _ _ _ L) as [C D]. repeat split; assumption.
Qed.

Lemma chain_end_pre : forall {es n q}, chain n q es -> is_pre (end_path q es) q.
Proof.
  induction es as [|e es IH]; intros n q C; cbn in *.
  - exists []. rewrite app_nil_r. reflexivity.
  - destruct C as (_ & <- & C). eapply is_pre_trans; [exact (IH _ _ C)|]. apply is_pre_refl_app.
Qed.

Lemma linked_top_path : forall {n q e st}, linked n q (e :: st) -> q = e_cpath e.
Proof. intros n q e st (_ & E & _). symmetry. exact E. Qed.

Lemma Forall_stack : forall {P : sentry -> Prop} {pops : list (sentry * nat)} {pv rest},
  Forall P (map fst pops ++ pv :: rest) -> Forall P (map fst pops) /\ P pv /\ Forall P rest.
Proof. intros P pops pv rest F. apply Forall_app in F. destruct F as [F1 F2]. apply Forall_cons_iff in F2. tauto. Qed.

Lemma rev_app_ne : forall (l : list sentry) e rest, rev l ++ e :: rest <> [].
Proof. intros l e rest. destruct (rev l); discriminate. Qed.

Lemma hop_lock_cell : forall H a, hop_observed H a ->
  exists c, hp (H (h_lock a)) (h_node a) = Some c /\ word c = h_word a /\ cont c = h_cont a.
Proof. intros H a (_ & _ & Hc & _). exact Hc. Qed.

Lemma descent_linked : forall {H tl tc n pth hs a q}, descent H tl tc n pth hs a q ->
  forall below, linked n pth below -> linked (h_node a) q (rev (map ih_e hs) ++ below).
Proof.
  intros H tl tc n pth hs a q D.
  induction D as [tl tc n pth a Ho Hin Hn | tl tc n pth i rest a q Hseen Hin Hn Hp D IH]; intros below L.
  - cbn. subst n. exact L.
  - cbn [map rev]. rewrite <- app_assoc. cbn [app]. apply IH. cbn. subst n pth. auto.
Qed.

Lemma descent_before : forall {H tl tc n pth hs a q}, descent H tl tc n pth hs a q ->
  Forall (fun i => (e_at (ih_e i) <= h_lock a)%nat) hs /\ (tl <= h_lock a)%nat.
Proof.
  intros H tl tc n pth hs a q D.
  induction D as [tl tc n pth a Ho Hin Hn | tl tc n pth i rest a q Hseen Hin Hn Hp D [IH1 IH2]].
  - split; [constructor | lia].
  - split; [constructor; [lia | exact IH1] | lia].
Qed.

Lemma descent_last_observed : forall {H tl tc n pth hs a q}, descent H tl tc n pth hs a q -> hop_observed H a.
Proof. intros H tl tc n pth hs a q D. induction D; assumption. Qed.

Lemma descent_pre : forall {H tl tc n pth hs a q}, descent H tl tc n pth hs a q -> is_pre pth q.
Proof.
  intros H tl tc n pth hs a q D.
  induction D as [tl tc n pth a Ho Hin Hn | tl tc n pth i rest a q Hseen Hin Hn Hp D IH].
  - exists []. rewrite app_nil_r. reflexivity.
  - subst pth. eapply is_pre_trans; [apply is_pre_refl_app | exact IH].
Qed.

Section History.
Context {H : history}.
Hypothesis Hd : disciplined H.
Hypothesis Hs : stays_reachable H.
Hypothesis Hfp : fullpath_stable H.
Hypothesis W : wf_history H.

Lemma hop_of_observed : forall e tc, sentry_seen H e -> (e_at e <= tc)%nat ->
  word_again H (e_node e) (e_word e) tc -> hop_observed H (hop_of e tc).
Proof.
  intros e tc (Hf & Hc & _) Hle Hw. unfold hop_observed, hop_of. cbn.
  repeat split; assumption.
Qed.

Lemma sentry_at : forall e tc t, sentry_ok H e -> word_again H (e_node e) (e_word e) tc ->
  (e_at e <= t <= tc)%nat -> valid_at H e t.
Proof.
  intros e tc t [Hseen Hr] Hw Ht.
  pose proof (hop_of_observed e tc Hseen ltac:(lia) Hw) as Ho. split.
  - apply (section_cell H (hop_of e tc) Hd Ho t). exact Ht.
  - apply (section_reach_inode H (hop_of e tc) (e_pth e) (e_pre e) (e_cs e) Hd Hs Hfp Ho); [reflexivity | exact Hr | exact Ht].
Qed.

Lemma valid_sorted : forall e t, valid_at H e t -> bytes_sorted (e_cs e).
Proof. intros e t [(c & Hc & _ & Hk) R]. eapply wf_sorted; [apply W | exact R | exact Hc | exact Hk]. Qed.

Lemma valid_child_nth : forall e t i b c', valid_at H e t ->
  nth_error (e_cs e) i = Some (b, c') -> reach (H t) c' (e_pth e ++ e_pre e ++ [b]).
Proof.
  intros e t i b c' V Hn. pose proof (valid_sorted e t V) as Srt. destruct V as [(c & Hc & _ & Hk) R].
  eapply reach_child; try eassumption. eapply find_child_nth; eassumption.
Qed.

Lemma valid_child : forall e t, valid_at H e t -> taken e -> reach (H t) (e_child e) (e_cpath e).
Proof. intros e t V Hn. exact (valid_child_nth e t _ _ _ V Hn). Qed.

Lemma valid_through : forall e t x v, valid_at H e t -> entry (H t) x v -> is_pre (e_pth e) x ->
  exists b c' r, find_child b (e_cs e) = Some c' /\ x = e_pth e ++ e_pre e ++ b :: r.
Proof.
  intros e t x v [(c & Hc & _ & Hk) R] E P.
  eapply through_inode; try eassumption. apply W.
Qed.

Lemma ihop_is_good : forall i, ihop_seen H i ->
  reach (H (e_at (ih_e i))) (e_node (ih_e i)) (e_pth (ih_e i)) -> ihop_good H i.
Proof.
  intros i (Hseen & _ & Hw) R.
  split; [exact (conj Hseen R)|]. intros t. exact (sentry_at _ _ t (conj Hseen R) Hw).
Qed.

Lemma ihop_child : forall i, ihop_good H i ->
  forall t, (e_at (ih_e i) <= t <= ih_check i)%nat -> reach (H t) (e_child (ih_e i)) (e_cpath (ih_e i)).
Proof. intros i [[(_ & _ & Hnth) _] G] t Ht. apply valid_child; [apply G; exact Ht | exact Hnth]. Qed.

Lemma descent_good : forall {tl tc n pth hs a q}, descent H tl tc n pth hs a q ->
  (forall t, (tl <= t <= tc)%nat -> reach (H t) n pth) ->
  Forall (ihop_good H) hs /\ reach (H (h_lock a)) (h_node a) q /\ (tl <= h_lock a)%nat.
Proof.
  intros tl tc n pth hs a q D.
  induction D as [tl tc n pth a Ho Hin Hn | tl tc n pth i rest a q Hseen Hin Hn Hp D IH]; intros R.
  - repeat split; try constructor; try lia. subst n. apply R. exact Hin.
  - assert (G : ihop_good H i).
    { apply ihop_is_good; try assumption. rewrite Hn, Hp. apply R. exact Hin. }
    destruct (IH (ihop_child i G)) as (I1 & I2 & I3).
    repeat split; [constructor; assumption | exact I2 | lia].
Qed.

Lemma descent_leaf : forall {tl tc n pth hs a q k v}, descent H tl tc n pth hs a q ->
  (forall t, (tl <= t <= tc)%nat -> reach (H t) n pth) -> h_cont a = CLeaf k v ->
  is_pre pth k /\ entry (H (h_lock a)) k v.
Proof.
  intros tl tc n pth hs a q k v D R Hk.
  destruct (descent_good D R) as (_ & Ra & _).
  destruct (hop_lock_cell H a (descent_last_observed D)) as (c & Hc & _ & Hkc). rewrite Hk in Hkc.
  split.
  - eapply is_pre_trans; [eapply descent_pre; exact D|]. eapply wf_leaf; [apply W | exact Ra | exact Hc | exact Hkc].
  - exists (h_node a), q, c. auto.
Qed.

Lemma descent_pos_ok : forall {tl tc n pth hs a q k v below}, descent H tl tc n pth hs a q ->
  (forall t, (tl <= t <= tc)%nat -> reach (H t) n pth) -> h_cont a = CLeaf k v ->
  rev (map ih_e hs) ++ below <> [] -> linked n pth below -> Forall (sentry_ok H) below ->
  Forall (fun e => (e_at e <= tl)%nat) below ->
  pos_ok H (desc_pos hs a k v below).
Proof.
  intros tl tc n pth hs a q k v below D R Hk Hne L Ok Hat.
  destruct (descent_good D R) as (G & _ & _).
  destruct (descent_before D) as [B1 B2].
  pose proof (descent_last_observed D) as Ho.
  unfold pos_ok, desc_pos. cbn [ip_leaf ip_key ip_val ip_word ip_at ip_stack].
  split; [destruct Ho as (_ & Hf & _); exact Hf|].
  split; [rewrite <- Hk; apply hop_lock_cell; exact Ho|].
  split; [|split; [|split]].
  - apply Forall_app. split; [|exact Ok]. apply Forall_rev. apply Forall_map.
    eapply Forall_impl; [|exact G]. intros i [Gi _]. exact Gi.
  - apply Forall_app. split.
    + apply Forall_rev. apply Forall_map. exact B1.
    + eapply Forall_impl; [|exact Hat]. cbv beta. intros e He. lia.
  - exact Hne.
  - pose proof (descent_linked D below L) as L'.
    unfold ip_path. cbn [ip_stack].
    destruct (rev (map ih_e hs) ++ below) as [|e st] eqn:E.
    + congruence.
    + rewrite <- (linked_top_path L'). exact L'.
Qed.

(** every key below the start node on the near side of the delivered one is
    absent at the lock moment of one of the hops *)
Lemma extreme_gap : forall d {tl tc n pth hs a q k' v'}, descent H tl tc n pth hs a q ->
  (forall t, (tl <= t <= tc)%nat -> reach (H t) n pth) -> Forall (fun i => near d (ih_e i)) hs ->
  h_cont a = CLeaf k' v' ->
  forall x, is_pre pth x -> dlt d x k' -> absent_within H tl (h_lock a) x.
Proof.
  intros d tl tc n pth hs a q k' v' D.
  induction D as [tl tc n pth a Ho Hin Hn | tl tc n pth i rest a q Hseen Hin Hn Hp D IH];
    intros R Hl Hk x Px Lx.
  - destruct (hop_lock_cell H a Ho) as (c & Hc & _ & Hkc). rewrite Hk in Hkc.
    assert (Ra : reach (H (h_lock a)) (h_node a) pth) by (subst n; apply R; exact Hin).
    exists (h_lock a). split; [lia|]. intros [vx Ex].
    destruct (through_leaf _ _ _ _ _ _ _ _ (W _) Ra Hc Hkc Ex Px) as [-> _].
    exact (dlt_irrefl _ _ Lx).
  - assert (G : ihop_good H i).
    { apply ihop_is_good; try assumption. rewrite Hn, Hp. apply R. exact Hin. }
    pose proof (ihop_child i G) as Rc. apply Forall_cons_iff in Hl. destruct Hl as [Hi0 Hl].
    destruct (is_pre_dec (e_cpath (ih_e i)) x) as [Pc|Pn].
    + destruct (IH Rc Hl Hk x Pc Lx) as (T & HT & A). exists T. split; [lia | exact A].
    + destruct (descent_leaf D Rc Hk) as [[r' Ek] _].
      destruct (descent_before D) as [_ L4]. destruct Hseen as ((_ & _ & Hnth) & Hle & _).
      exists (e_at (ih_e i)). split; [lia|]. intros [vx Ex].
      assert (V : valid_at H (ih_e i) (e_at (ih_e i))) by (apply G; lia).
      subst pth. destruct (valid_through _ _ x vx V Ex Px) as (bx & cx & r & Hf & ->).
      destruct (near_spec d _ _ _ (valid_sorted _ _ V) Hnth Hi0 Hf) as [[-> ->] | Hlt].
      * apply Pn. exists r. symmetry. apply cpath_below.
      * rewrite Ek, cpath_below in Lx. exact (dlt_byte_inv _ _ _ _ _ _ _ Lx Hlt).
Qed.

Lemma extreme_query : forall d {tl tc n pth hs a q k' v'}, descent H tl tc n pth hs a q ->
  (forall t, (tl <= t <= tc)%nat -> reach (H t) n pth) -> Forall (fun i => near d (ih_e i)) hs ->
  h_cont a = CLeaf k' v' ->
  is_pre pth k' /\ entry (H (h_lock a)) k' v' /\
  forall x, is_pre pth x -> dlt d x k' -> absent_within H tl (h_lock a) x.
Proof.
  intros d tl tc n pth hs a q k' v' D R Hl Hk.
  destruct (descent_leaf D R Hk) as [P E].
  split; [exact P|]. split; [exact E|]. exact (extreme_gap d D R Hl Hk).
Qed.

(** A, kw: as in [loop_some_query] *)
Lemma pop_floor : forall d {T0} {A : key -> Prop} {kw}, (forall x, A x -> ~ dlt d x kw) ->
  forall {es n q}, Forall (fun e => valid_at H e T0) es -> Forall (exhausted_e d) es -> chain n q es ->
  is_pre q kw -> floor H T0 A q -> floor H T0 A (end_path q es).
Proof.
  intros d T0 A kw HA. induction es as [|e es IH]; intros n q V X C Pk F; cbn in *; [exact F|].
  apply Forall_cons_iff in V. destruct V as [Ve V]. apply Forall_cons_iff in X. destruct X as [[Xn Xl] X].
  destruct C as (_ & <- & C). destruct Pk as [r' ->].
  apply (IH (e_node e) (e_pth e)); try assumption.
  - rewrite cpath_below. apply is_pre_refl_app.
  - intros x Ax Px [vx Ex].
    destruct (valid_through e T0 x vx Ve Ex Px) as (bx & cx & r & Hf & ->).
    destruct (far_spec d _ _ _ (valid_sorted _ _ Ve) Xn Xl Hf) as [[-> ->] | Hlt].
    + apply (F _ Ax); [|exists vx; exact Ex]. exists r. symmetry. apply cpath_below.
    + apply (HA _ Ax). rewrite cpath_below. apply dlt_byte. exact Hlt.
Qed.

Lemma popped_valid : forall d t0 (pops : list (sentry * nat)),
  Forall (sentry_ok H) (map fst pops) -> Forall (gpopped d H t0) pops ->
  Forall (fun e => valid_at H e t0) (map fst pops) /\ Forall (exhausted_e d) (map fst pops).
Proof.
  intros d t0 pops. induction pops as [|[e tc] pops IH]; intros Ok Pp; cbn.
  - split; constructor.
  - inversion Ok as [|e0 l0 Oe Ok']; subst. inversion Pp as [|p0 l0 (Ht & Hw & Hx) Pp']; subst. cbn in *.
    destruct (IH Ok' Pp') as [I1 I2]. split; constructor; try assumption.
    + apply (sentry_at e tc t0 Oe Hw). lia.
    + split; [|exact Hx]. destruct Oe as [(_ & _ & Hn) _]. exact Hn.
Qed.

Lemma popped_top_valid : forall d t0 pops tail,
  Forall (sentry_ok H) (map fst pops) -> Forall (gpopped d H t0) pops ->
  (forall e l, tail = e :: l -> valid_at H e t0) ->
  forall e l, map fst pops ++ tail = e :: l -> valid_at H e t0.
Proof.
  intros d t0 pops tail Ok Pp Vt e l E. destruct (popped_valid d t0 pops Ok Pp) as [Vp _].
  destruct pops as [|[e1 t1] pops]; cbn in E; [exact (Vt e l E)|].
  injection E as <- _. inversion Vp; assumption.
Qed.

Lemma pivot_query : forall d {T0 tend} {A : key -> Prop} {kw pv j b' c' k'},
  (forall x, A x -> ~ dlt d x kw) -> (T0 <= tend)%nat -> valid_at H pv T0 -> taken pv ->
  dadj d (e_idx pv) j -> nth_error (e_cs pv) j = Some (b', c') ->
  is_pre (e_cpath pv) kw -> floor H T0 A (e_cpath pv) ->
  is_pre (e_pth pv ++ e_pre pv ++ [b']) k' ->
  (forall x, is_pre (e_pth pv ++ e_pre pv ++ [b']) x -> dlt d x k' -> absent_within H T0 tend x) ->
  dltZ d (e_byte pv) b' /\
  forall x, A x -> is_pre (e_pth pv) x -> dlt d x k' -> absent_within H T0 tend x.
Proof.
  intros d T0 tend A kw pv j b' c' k' HA Hle V Hn Hj Hn' [rk ->] F [rk' Ek'] Gap.
  pose proof (valid_sorted _ _ V) as Srt. rewrite <- !app_assoc in Ek'. cbn in Ek'.
  split; [exact (proj1 (adj_gap d _ _ _ _ _ _ _ _ _ Srt Hn Hj Hn' (find_child_nth _ _ _ _ Srt Hn)))|].
  intros x Ax Px Lx.
  destruct (is_pre_dec (e_pth pv ++ e_pre pv ++ [b']) x) as [Pc|Pn]; [apply Gap; assumption|].
  exists T0. split; [lia|]. intros [vx Ex].
  destruct (valid_through pv T0 x vx V Ex Px) as (bx & cx & r & Hf & ->).
  destruct (adj_gap d _ _ _ _ _ _ _ _ _ Srt Hn Hj Hn' Hf) as [_ [Hlt | [[-> ->] | [[-> ->] | Hgt]]]].
  - apply (HA _ Ax). rewrite cpath_below. apply dlt_byte. exact Hlt.
  - apply (F _ Ax); [|exists vx; exact Ex]. exists r. symmetry. apply cpath_below.
  - apply Pn. exists r. rewrite <- !app_assoc. reflexivity.
  - rewrite Ek' in Lx. exact (dlt_byte_inv _ _ _ _ _ _ _ Lx Hgt).
Qed.

Lemma leaf_floor : forall pos t0 (A : key -> Prop), pos_ok H pos -> leaf_again H pos t0 ->
  (forall e l, ip_stack pos = e :: l -> valid_at H e t0) -> (forall x, A x -> x <> ip_key pos) ->
  is_pre (ip_path pos) (ip_key pos) /\ floor H t0 A (ip_path pos).
Proof.
  intros pos t0 A (Hfree & (c1 & Hc1 & Hw1 & Hk1) & Hok & _ & Hne & Hlink) [Hle (c2 & Hc2 & Hw2)] Vt HA.
  unfold ip_path in *. destruct (ip_stack pos) as [|e l]; [congruence|].
  destruct Hlink as (Echild & _ & _). apply Forall_cons_iff in Hok. destruct Hok as [[(_ & _ & Hnth) _] _].
  assert (Hc0 : hp (H t0) (ip_leaf pos) = Some c1).
  { apply (proj1 Hd (ip_leaf pos) (ip_at pos) t0 c1 c2 Hle Hc1 Hc2); [congruence | rewrite Hw1; exact Hfree | lia]. }
  pose proof (valid_child e t0 (Vt e l eq_refl) Hnth) as R. rewrite Echild in R.
  split.
  - eapply wf_leaf; [apply W | exact R | exact Hc0 | exact Hk1].
  - intros x Ax Px [vx Ex].
    destruct (through_leaf _ _ _ _ _ _ _ _ (W _) R Hc0 Hk1 Ex Px) as [-> _].
    exact (HA _ Ax eq_refl).
Qed.

(** A is the set of keys asked for (beyond the bound), kw a key below the path
    q0 of the current child of the top entry such that no key of A is on the
    near side of kw, and no key of A is in the tree below q0 at t0 *)
Theorem loop_some_query : forall d {st n0 q0 t0 pops pv tc j b' c' rest hs a q k' v'} {A : key -> Prop} {kw},
  Forall (sentry_ok H) st -> linked n0 q0 st ->
  gloop d H st t0 pops pv tc j b' c' rest hs a q k' v' ->
  (forall x, A x -> ~ dlt d x kw) -> is_pre q0 kw -> floor H t0 A q0 ->
  (t0 <= h_lock a)%nat /\ entry (H (h_lock a)) k' v' /\ dlt d kw k' /\
  forall x, A x -> dlt d x k' -> absent_within H t0 (h_lock a) x.
Proof.
  intros d st n0 q0 t0 pops pv tc j b' c' rest hs a q k' v' A kw Hok Hlink
    [Nst Npp Nt Nw Nj Nn Nd Nl Nc] HA Pk F. subst st.
  destruct (Forall_stack Hok) as (Okp & Okv & _).
  destruct (linked_app Hlink) as [C (_ & Ecp & _)].
  destruct (popped_valid d t0 pops Okp Npp) as [Vp Xp].
  assert (Vv : forall t, (e_at pv <= t <= tc)%nat -> valid_at H pv t).
  { intros t. exact (sentry_at pv tc t Okv Nw). }
  assert (Pkv : is_pre (e_cpath pv) kw).
  { rewrite Ecp. eapply is_pre_trans; [eapply chain_end_pre; exact C | exact Pk]. }
  assert (Fv : floor H t0 A (e_cpath pv)) by (rewrite Ecp; eapply pop_floor; eassumption).
  assert (Rc : forall t, (t0 <= t <= tc)%nat -> reach (H t) c' (e_pth pv ++ e_pre pv ++ [b'])).
  { intros t Ht. eapply valid_child_nth; [apply Vv; lia | exact Nn]. }
  destruct (extreme_query d Nd Rc Nl Nc) as (Pk' & Ek' & Gap).
  destruct (descent_before Nd) as [_ Lt0].
  destruct Okv as [(_ & _ & Hn) _].
  destruct (pivot_query d HA Lt0 (Vv t0 ltac:(lia)) Hn Nj Nn Pkv Fv Pk' Gap) as [Lb Q].
  assert (Lkk : dlt d kw k').
  { destruct Pkv as [r1 ->]. destruct Pk' as [r2 ->]. rewrite cpath_below, <- !app_assoc. apply dlt_byte. exact Lb. }
  repeat split; try assumption.
  intros x Ax Lx. apply Q; try assumption.
  destruct Pkv as [r1 E1]. destruct Pk' as [r2 E2]. unfold e_cpath in E1. rewrite <- app_assoc in E1, E2.
  subst kw k'. eapply dbetween; [apply not_dlt_le; apply HA; exact Ax | apply dlt_le; exact Lx].
Qed.

Theorem loop_none_query : forall d {T0} {A : key -> Prop} {kw n0 q0 pops},
  (forall x, A x -> ~ dlt d x kw) -> is_pre q0 kw -> floor H T0 A q0 ->
  Forall (sentry_ok H) (map fst pops) -> Forall (gpopped d H T0) pops ->
  linked n0 q0 (map fst pops) ->
  forall x, A x -> ~ has_key (H T0) x.
Proof.
  intros d T0 A kw n0 q0 pops HA Pk F Ok Pp L x Ax.
  destruct (popped_valid d T0 pops Ok Pp) as [Vp Xp].
  rewrite <- (app_nil_r (map fst pops)) in L. destruct (linked_app L) as [C E]. cbn in E.
  pose proof (pop_floor d HA Vp Xp C Pk F) as F'. rewrite E in F'.
  apply F'; [exact Ax | exists x; reflexivity].
Qed.

Lemma repoint_ok : forall pv j b' c', sentry_ok H pv ->
  nth_error (e_cs pv) j = Some (b', c') -> sentry_ok H (repoint pv j b' c').
Proof.
  intros pv j b' c' [(Hf & Hc & _) R] Hn. unfold sentry_ok, sentry_seen, repoint. cbn.
  repeat split; assumption.
Qed.

Theorem loop_pos : forall d {st n0 q0 t0 pops pv tc j b' c' rest hs a q k' v'},
  Forall (sentry_ok H) st -> Forall (fun e => (e_at e <= t0)%nat) st -> linked n0 q0 st ->
  gloop d H st t0 pops pv tc j b' c' rest hs a q k' v' ->
  pos_ok H (desc_pos hs a k' v' (repoint pv j b' c' :: rest)).
Proof.
  intros d st n0 q0 t0 pops pv tc j b' c' rest hs a q k' v' Hok Hat Hlink [Nst Npp Nt Nw Nj Nn Nd Nl Nc]. subst st.
  destruct (Forall_stack Hok) as (_ & Okv & Okr). destruct (Forall_stack Hat) as (_ & Atv & Atr).
  destruct (linked_app Hlink) as [_ (_ & _ & Lr)].
  eapply (descent_pos_ok (tl := t0) (tc := tc)); try eassumption.
  - intros t Ht. eapply valid_child_nth; [|exact Nn].
    apply (sentry_at pv tc t Okv Nw). lia.
  - apply rev_app_ne.
  - cbn. repeat split. exact Lr.
  - constructor; [apply repoint_ok; assumption | exact Okr].
  - constructor; [cbn; lia | exact Atr].
Qed.

Lemma loop_top_valid : forall d {st t0 pops pv tc j b' c' rest hs a q k' v'}, Forall (sentry_ok H) st ->
  gloop d H st t0 pops pv tc j b' c' rest hs a q k' v' -> forall e l, st = e :: l -> valid_at H e t0.
Proof.
  intros d st t0 pops pv tc j b' c' rest hs a q k' v' Hok [Nst Npp Nt Nw Nj Nn Nd Nl Nc]. subst st.
  destruct (Forall_stack Hok) as (Okp & Okv & _).
  apply (popped_top_valid d t0 pops _ Okp Npp). intros e l E. injection E as <- _.
  apply (sentry_at pv tc t0 Okv Nw). lia.
Qed.

(** a step that delivers a leaf, for any bound (s, b) that lies at the current
    position: b below the path of the current leaf, the current key not asked
    for.  [next] / [prior]: the current key, strict; after a [seek] that
    landed on a leaf on the wrong side: the search key, not strict. *)
Theorem step_some_query : forall d {pos t0 pops pv tc j b' c' rest hs a q k' v'} s b,
  pos_ok H pos -> leaf_again H pos t0 ->
  gloop d H (ip_stack pos) t0 pops pv tc j b' c' rest hs a q k' v' ->
  is_pre (ip_path pos) b -> (forall x, dbound d s b x -> x <> ip_key pos) ->
  (t0 <= h_lock a)%nat /\ dlt d b k' /\ gquery d H t0 (h_lock a) (dbound d s b) (Some (k', v')) /\
  pos_ok H (desc_pos hs a k' v' (repoint pv j b' c' :: rest)).
Proof.
  intros d pos t0 pops pv tc j b' c' rest hs a q k' v' s b Pok Nl N Pb Hne.
  pose proof Pok as (_ & _ & Hok & Hat & _ & Hlink).
  destruct (leaf_floor pos t0 (dbound d s b) Pok Nl (loop_top_valid d Hok N) Hne) as [_ F].
  destruct (loop_some_query d Hok Hlink N
              (dbound_not_lt d s b) Pb F) as (L0 & E' & Lk & Q).
  split; [exact L0|]. split; [exact Lk|]. split.
  - apply (gquery_some d H _ _ s b (h_lock a)); [exact Lk | lia | exact E' | exact Q].
  - eapply loop_pos; [exact Hok | | exact Hlink | exact N].
    destruct Nl as [Nl _]. eapply Forall_impl; [|exact Hat]. cbv beta. intros x Hx. lia.
Qed.

Theorem step_none_query : forall d {pos t0 pops} s b, pos_ok H pos -> leaf_again H pos t0 ->
  ip_stack pos = map fst pops -> Forall (gpopped d H t0) pops ->
  is_pre (ip_path pos) b -> (forall x, dbound d s b x -> x <> ip_key pos) ->
  gfirst d (H t0) (dbound d s b) None.
Proof.
  intros d pos t0 pops s b Pok Nl Nst Npp Pb Hne.
  pose proof Pok as (_ & _ & Hok & _ & _ & Hlink). rewrite Nst in Hok, Hlink.
  destruct (leaf_floor pos t0 (dbound d s b) Pok Nl) as [_ F]; [|exact Hne|].
  - rewrite Nst, <- (app_nil_r (map fst pops)). apply (popped_top_valid d t0 pops [] Hok Npp). discriminate.
  - exact (loop_none_query d (dbound_not_lt d s b) Pb F Hok Npp Hlink).
Qed.

(** known only once the leaf is re-validated while the top entry is still valid *)
Lemma step_key_pre : forall {pos t0}, pos_ok H pos -> leaf_again H pos t0 ->
  (forall e l, ip_stack pos = e :: l -> valid_at H e t0) -> is_pre (ip_path pos) (ip_key pos).
Proof. intros pos t0 Pok Nl Vt. apply (leaf_floor pos t0 (fun _ => False) Pok Nl Vt). intros x []. Qed.

(** [next] / [prior] from key k: the interval successor / predecessor query *)
Theorem step_succ_some : forall d {pos t0 pops pv tc j b' c' rest hs a q k' v'},
  pos_ok H pos -> leaf_again H pos t0 ->
  gloop d H (ip_stack pos) t0 pops pv tc j b' c' rest hs a q k' v' ->
  (t0 <= h_lock a)%nat /\ gquery d H t0 (h_lock a) (dbound d true (ip_key pos)) (Some (k', v')) /\
  pos_ok H (desc_pos hs a k' v' (repoint pv j b' c' :: rest)).
Proof.
  intros d pos t0 pops pv tc j b' c' rest hs a q k' v' Pok Nl N.
  pose proof Pok as (_ & _ & Hok & _).
  pose proof (step_key_pre Pok Nl (loop_top_valid d Hok N)) as Pk.
  destruct (step_some_query d true (ip_key pos) Pok Nl N Pk (dlt_neq d _))
    as (L & _ & Q & P).
  auto.
Qed.

Theorem step_succ_none : forall d {pos t0 pops}, pos_ok H pos -> leaf_again H pos t0 ->
  ip_stack pos = map fst pops -> Forall (gpopped d H t0) pops ->
  gfirst d (H t0) (dbound d true (ip_key pos)) None.
Proof.
  intros d pos t0 pops Pok Nl Nst Npp. pose proof Pok as (_ & _ & Hok & _).
  apply (step_none_query d true (ip_key pos) Pok Nl Nst Npp); [|exact (dlt_neq d _)].
  apply (step_key_pre Pok Nl). rewrite Nst in Hok |- *. rewrite <- (app_nil_r (map fst pops)).
  apply (popped_top_valid d t0 pops [] Hok Npp). discriminate.
Qed.

End History.

Theorem next_succ_some : forall H pos t0 pops pv tc b' c' rest hs a q k' v',
  disciplined H -> stays_reachable H -> fullpath_stable H -> wf_history H -> pos_ok H pos ->
  next_some H pos t0 pops pv tc b' c' rest hs a q k' v' ->
  (t0 <= h_lock a)%nat /\ wquery H t0 (h_lock a) true (ip_key pos) (Some (k', v')) /\
  pos_ok H (next_pos pv b' c' rest hs a k' v').
Proof.
  intros H pos t0 pops pv tc b' c' rest hs a q k' v' Hd Hs Hfp W Pok [Nl N].
  exact (step_succ_some Hd Hs Hfp W Fwd Pok Nl (up_some_loop N)).
Qed.

Theorem next_succ_none : forall H pos t0 pops,
  disciplined H -> stays_reachable H -> fullpath_stable H -> wf_history H -> pos_ok H pos ->
  next_none H pos t0 pops -> succ_query (H t0) (ip_key pos) None.
Proof.
  intros H pos t0 pops Hd Hs Hfp W Pok [Nl [Nst Npp]].
  exact (step_succ_none Hd Hs Hfp W Fwd Pok Nl Nst Npp).
Qed.
