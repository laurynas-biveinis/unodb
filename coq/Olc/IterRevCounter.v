(** C09d: the atomic reading of a REVERSE iterator step is false -- a checked
    counterexample, the mirror image of Olc/IterCounter.v.  Tree: root 0 =
    {1 -> node 1, 2 -> node 2}, node 1 = {1 -> leaf 3 "11"}, node 2 =
    {5 -> leaf 4 "25"}.  The iterator stands on "25".  try_prior re-validates
    the leaf (moment 1) and node 2 (moment 2, child index 0), pops both.  At
    moment 3 a writer inserts "24" below node 2, at moment 4 another writer
    inserts "19" below node 1.  The root entry is re-validated (unchanged),
    its prior child is node 1, the right-most descent delivers "19".  All
    conditions of the step theorem hold, the step is an interval predecessor
    query, but at no single moment is "19" the predecessor of "25". *)
From Coq Require Import List ZArith Bool Arith Lia Sorted.
From Unodb Require Import Base.Lex Lock.LockModel Olc.ReadModel Olc.IterModel Olc.IterProofs Olc.ExampleKit
  Olc.IterRevModel Olc.IterRevProofs.
Import ListNotations.
Local Open Scope Z_scope.

Definition rk0 : list (Z * nid) := [(1, 1%nat); (2, 2%nat)].
Definition rk1 : list (Z * nid) := [(1, 3%nat)].
Definition rk1' : list (Z * nid) := [(1, 3%nat); (9, 6%nat)].
Definition rk2 : list (Z * nid) := [(5, 4%nat)].
Definition rk2' : list (Z * nid) := [(4, 5%nat); (5, 4%nat)].

Definition rh0 (n : nid) : option cell :=
  match n with
  | 0%nat => Some {| word := 0; cont := CInode [] rk0 |}
  | 1%nat => Some {| word := 0; cont := CInode [] rk1 |}
  | 2%nat => Some {| word := 0; cont := CInode [] rk2 |}
  | 3%nat => Some {| word := 0; cont := CLeaf [1; 1] [110] |}
  | 4%nat => Some {| word := 0; cont := CLeaf [2; 5] [250] |}
  | _ => None
  end.
Definition rh1 (n : nid) : option cell :=
  match n with
  | 2%nat => Some {| word := 4; cont := CInode [] rk2' |}
  | 5%nat => Some {| word := 0; cont := CLeaf [2; 4] [240] |}
  | _ => rh0 n
  end.
Definition rh2 (n : nid) : option cell :=
  match n with
  | 1%nat => Some {| word := 4; cont := CInode [] rk1' |}
  | 6%nat => Some {| word := 0; cont := CLeaf [1; 9] [190] |}
  | _ => rh1 n
  end.
Definition rmk (h : nid -> option cell) : gstate := {| hp := h; root_word := 0; root := Some 0%nat |}.
Definition Hr : history := fun t => if (t <? 3)%nat then rmk rh0 else if (t <? 4)%nat then rmk rh1 else rmk rh2.

Definition places_r : list (nid * list Z) :=
  [(0%nat, []); (1%nat, [1]); (2%nat, [2]); (3%nat, [1; 1]); (4%nat, [2; 5]); (5%nat, [2; 4]); (6%nat, [1; 9])].

Lemma Hr_wf : wf_history Hr.
Proof.
  apply (phased_wf [(3%nat, rmk rh0); (4%nat, rmk rh1)] (rmk rh2)).
  intros g [<- | [<- | [<- | []]]]; apply (shape_wf _ places_r); reflexivity.
Qed.

Lemma Hr_fullpath : fullpath_stable Hr.
Proof.
  apply (phased_fullpath [(3%nat, rmk rh0); (4%nat, rmk rh1)] (rmk rh2)
           (fun n => match n with 1%nat => [1] | 2%nat => [2] | _ => [] end)).
  intros g [<- | [<- | [<- | []]]]; apply (fp_fullpath _ _ places_r); reflexivity.
Qed.

Lemma Hr_disciplined : disciplined Hr.
Proof.
  apply (phased_disciplined [(3%nat, rmk rh0); (4%nat, rmk rh1)] (rmk rh2)).
  apply sorted3; (split; [|left; split; reflexivity]); intros n c Hc0; each_node 7 n (cell_le Hc0).
Qed.

Lemma Hr_stays_reachable : stays_reachable Hr.
Proof.
  apply (phased_stays_reachable [(3%nat, rmk rh0); (4%nat, rmk rh1)] (rmk rh2)).
  apply sorted3; apply grows_reach_le; (split; [reflexivity|]);
    intros n c p cs b c' Hc0 Hk Hf; each_node 7 n (edge_stays Hc0 Hk Hf).
Qed.

Definition er2 : sentry := {| e_node := 2%nat; e_pth := [2]; e_pre := []; e_cs := rk2; e_idx := 0%nat; e_byte := 5;
                              e_child := 4%nat; e_word := 0; e_at := 0%nat |}.
Definition er0 : sentry := {| e_node := 0%nat; e_pth := []; e_pre := []; e_cs := rk0; e_idx := 1%nat; e_byte := 2;
                              e_child := 2%nat; e_word := 0; e_at := 0%nat |}.
Definition posr : ipos := {| ip_leaf := 4%nat; ip_key := [2; 5]; ip_val := [250]; ip_word := 0; ip_at := 0%nat;
                             ip_stack := [er2; er0] |}.
Definition er1 : sentry := {| e_node := 1%nat; e_pth := [1]; e_pre := []; e_cs := rk1'; e_idx := 1%nat; e_byte := 9;
                              e_child := 6%nat; e_word := 4; e_at := 5%nat |}.
Definition ir1 : ihop := {| ih_e := er1; ih_check := 7%nat |}.
Definition ar : hop := {| h_node := 6%nat; h_lock := 6%nat; h_check := 9%nat; h_word := 0; h_cont := CLeaf [1; 9] [190] |}.

Lemma posr_ok : pos_ok Hr posr.
Proof.
  unfold pos_ok. cbn [ip_word ip_at ip_leaf ip_key ip_val ip_stack posr].
  split; [reflexivity|]. split; [cell_now|]. split; [|split; [|split; [discriminate|]]].
  - constructor; [|constructor; [|constructor]].
    + split; [split; [reflexivity | split; [cell_now | reflexivity]] | apply (reach_by _ 0%nat [2]); reflexivity].
    + split; [split; [reflexivity | split; [cell_now | reflexivity]] | apply reach_root; reflexivity].
  - repeat constructor.
  - cbn. repeat split; reflexivity.
Qed.

Lemma stepr : prior_some Hr posr 1 [(er2, 2%nat)] er0 8 1 1%nat [] [ir1] ar [1; 9] [1; 9] [190].
Proof.
  split.
  - split; [cbn; lia | cell_now].
  - split; try reflexivity.
    + constructor; [|constructor]. split; [cbn; lia | split; [cell_now | reflexivity]].
    + cbn. lia.
    + cell_now.
    + cbn. lia.
    + apply d_step; [| cbn; lia | reflexivity | reflexivity |].
      * split; [split; [reflexivity | split; [cell_now | reflexivity]] | split; [cbn; lia | cell_now]].
      * apply d_last; [hop_now | cbn; lia | reflexivity].
    + constructor; [reflexivity | constructor].
Qed.

Lemma stepr_interval : rquery Hr 1 6 (UKey true [2; 5]) (Some ([1; 9], [190])).
Proof.
  destruct (prior_pred_some Hr posr 1 _ _ _ _ _ _ _ _ _ _ _ Hr_disciplined Hr_stays_reachable Hr_fullpath Hr_wf
              posr_ok stepr) as (_ & Q & _). exact Q.
Qed.

Lemma has24_late : forall T, (4 <= T)%nat -> has_key (Hr T) [2; 4].
Proof.
  intros T HT. exists [240], 5%nat, [2; 4]. eexists.
  assert (E : Hr T = rmk rh2).
  { unfold Hr. destruct (Nat.ltb_spec T 3); [lia|]. destruct (Nat.ltb_spec T 4); [lia | reflexivity]. }
  rewrite E. split; [apply (reach_by _ 0%nat [2; 4]); reflexivity | split; reflexivity].
Qed.

Lemma no19_early : forall T v, (T < 4)%nat -> ~ entry (Hr T) [1; 9] v.
Proof.
  intros T v HT E. assert (Hr T = rmk rh0 \/ Hr T = rmk rh1) as [Eq | Eq].
  { unfold Hr. destruct (T <? 3)%nat; [left; reflexivity|]. destruct (Nat.ltb_spec T 4); [right; reflexivity | lia]. }
  - rewrite Eq in E. exact (not_key_absent [1; 9] (rmk rh0) places_r eq_refl eq_refl (ex_intro _ v E)).
  - rewrite Eq in E. exact (not_key_absent [1; 9] (rmk rh1) places_r eq_refl eq_refl (ex_intro _ v E)).
Qed.

Theorem rstep_not_atomic : forall T, ~ pred_query (Hr T) [2; 5] (Some ([1; 9], [190])).
Proof.
  intros T (_ & E & G). destruct (le_lt_dec 4 T) as [Hge | Hlt].
  - apply (G [2; 4]); [reflexivity | reflexivity | apply has24_late; exact Hge].
  - exact (no19_early T _ Hlt E).
Qed.
