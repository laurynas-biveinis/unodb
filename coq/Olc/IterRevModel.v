(** C09d: the REVERSE direction of the OLC iterator (olc_art.hpp, class
    olc_db::iterator: try_prior, try_last, try_right_most_traversal, the
    reverse branches of try_seek, prior() with its re-seek fallback), in the
    framework of Olc/ReadModel.v and Olc/IterModel.v (history of heaps,
    iterator stack, lock-coupled descents).  Definitions only; proofs in
    Olc/IterRevProofs.v, IterRevSeek.v, IterRevScan.v.

    The direction-independent parts of Olc/IterModel.v are reused as they
    are: stack entries [sentry], positions [ipos] / [pos_ok], descents
    [descent], the descent from the root [root_down] and the search phase of
    try_seek [seek_down] (the search phase is the same code for both
    directions).  What is new, mirroring the C++ function by function:

    - [rightmost]: try_right_most_traversal pushes inode->last(), the child
      with the greatest key byte (forward: begin(), index 0);
    - [rpopped_ok] / [down_some] / [down_none]: the loop of try_prior: an
      entry is popped when inode->prior(child_index) is empty, i.e. the child
      index is 0 (forward: no index + 1); the pivot moves to index - 1 and a
      right-most descent follows;
    - the endings of try_seek with fwd = false:
        leaf, cmp_ >= 0 (search key >= leaf key): positioned on the leaf;
        leaf, cmp_ <  0: try_prior() from the leaf;
        key prefix mismatch, search key byte < prefix byte: left-most
          descent, then try_prior() (every key below the node is greater:
          [seek_dead_rev]; the entries pushed by the left-most descent all
          have index 0 and are popped again, they are not part of the
          observations, exactly as the forward model treats the right-most
          descent of its mirror case);
        key prefix mismatch, search key byte > prefix byte: right-most
          descent from the node;
        no child for the key byte, lte_key_byte finds a smaller one: that
          entry is pushed, right-most descent below its child;
        no child for the key byte, lte_key_byte finds nothing: try_prior()
          on the stack (the top entry is the parent's);
    - the upper bound of a reverse query is a key (inclusive for seek,
      exclusive for prior) or +infinity (try_last): [ubound];
    - the result notion: an interval PREDECESSOR query [rquery];
    - positions whose stack holds only a leaf (the root pointer points to a
      leaf: a one-entry tree): [leafpos_ok], and the empty tree. *)
From Coq Require Import List ZArith Bool Arith Sorted.
From Unodb Require Import Base.Lex Lock.LockModel Olc.ReadModel Olc.IterModel.
Import ListNotations.
Local Open Scope Z_scope.

(** ** Upper bounds and predecessor queries *)

Inductive ubound := UInf | UKey (strict : bool) (hi : key).

Definition below (u : ubound) (x : key) : Prop :=
  match u with
  | UInf => True
  | UKey true hi => lex_lt x hi
  | UKey false hi => lex_le x hi
  end.

(** atomic: r is the entry with the greatest key below the bound in g *)
Definition last_query (g : gstate) (u : ubound) (r : option (key * val)) : Prop :=
  match r with
  | Some (k, v) => below u k /\ entry g k v /\ forall x, below u x -> lex_lt k x -> ~ has_key g x
  | None => forall x, below u x -> ~ has_key g x
  end.

Definition pred_query (g : gstate) (k : key) (r : option (key * val)) : Prop := last_query g (UKey true k) r.

(** interval: within the moments [t1, t2] the delivered entry is in the tree
    at some moment, and every key below the bound and above the delivered key
    is absent at some moment; [None]: every key below the bound is absent at
    some moment *)
Definition rquery (H : history) (t1 t2 : nat) (u : ubound) (r : option (key * val)) : Prop :=
  match r with
  | Some (k, v) => below u k /\ (exists T, (t1 <= T <= t2)%nat /\ entry (H T) k v) /\
                   forall x, below u x -> lex_lt k x -> absent_within H t1 t2 x
  | None => forall x, below u x -> absent_within H t1 t2 x
  end.

(** ** try_right_most_traversal: every entry pushed is the last child *)

Definition rightmost (hs : list ihop) : Prop :=
  Forall (fun i => nth_error (e_cs (ih_e i)) (S (e_idx (ih_e i))) = None) hs.

(** ** A successful try_prior *)

(** an entry that was popped because inode->prior(child_index) is empty: its
    word was the saved one again at the check moment (snd p), child index 0 *)
Definition rpopped_ok (H : history) (t0 : nat) (p : sentry * nat) : Prop :=
  (e_at (fst p) <= t0 <= snd p)%nat /\ word_again H (e_node (fst p)) (e_word (fst p)) (snd p) /\
  e_idx (fst p) = 0%nat.

(** the pivot entry after the step: child index - 1 *)
Definition retreat (e : sentry) (b : Z) (c : nid) : sentry :=
  {| e_node := e_node e; e_pth := e_pth e; e_pre := e_pre e; e_cs := e_cs e;
     e_idx := Nat.pred (e_idx e); e_byte := b; e_child := c; e_word := e_word e; e_at := e_at e |}.

(** the loop of try_prior on a stack st of inner entries, started no earlier
    than t0: the entries pops are re-validated, have child index 0 and are
    popped; the pivot pv has a prior child (b', c') and is re-validated until
    tc (its last check is the try_read_unlock in try_right_most_traversal
    after the child was read-locked); right-most descent hs / a below c' *)
Record down_some (H : history) (st : list sentry) (t0 : nat) (pops : list (sentry * nat))
    (pv : sentry) (tc : nat) (b' : Z) (c' : nid) (rest : list sentry)
    (hs : list ihop) (a : hop) (q : list Z) (k' : key) (v' : val) : Prop := {
  dn_stack : st = map fst pops ++ pv :: rest;
  dn_pops : Forall (rpopped_ok H t0) pops;
  dn_pv_t : (e_at pv <= t0 <= tc)%nat;
  dn_pv_w : word_again H (e_node pv) (e_word pv) tc;
  dn_pos : (0 < e_idx pv)%nat;
  dn_prev : nth_error (e_cs pv) (Nat.pred (e_idx pv)) = Some (b', c');
  dn_desc : descent H t0 tc c' (e_pth pv ++ e_pre pv ++ [b']) hs a q;
  dn_right : rightmost hs;
  dn_cont : h_cont a = CLeaf k' v' }.

(** ... every entry is popped: the stack is empty, the iterator is at the end *)
Record down_none (H : history) (st : list sentry) (t0 : nat) (pops : list (sentry * nat)) : Prop := {
  dz_stack : st = map fst pops;
  dz_pops : Forall (rpopped_ok H t0) pops }.

Definition prior_pos (pv : sentry) (b' : Z) (c' : nid) (rest : list sentry)
    (hs : list ihop) (a : hop) (k' : key) (v' : val) : ipos :=
  {| ip_leaf := h_node a; ip_key := k'; ip_val := v'; ip_word := h_word a; ip_at := h_lock a;
     ip_stack := rev (map ih_e hs) ++ retreat pv b' c' :: rest |}.

(** try_prior from a position: the leaf is re-validated and popped, then the loop *)
Definition prior_some (H : history) (pos : ipos) (t0 : nat) (pops : list (sentry * nat))
    (pv : sentry) (tc : nat) (b' : Z) (c' : nid) (rest : list sentry)
    (hs : list ihop) (a : hop) (q : list Z) (k' : key) (v' : val) : Prop :=
  leaf_again H pos t0 /\ down_some H (ip_stack pos) t0 pops pv tc b' c' rest hs a q k' v'.

Definition prior_none (H : history) (pos : ipos) (t0 : nat) (pops : list (sentry * nat)) : Prop :=
  leaf_again H pos t0 /\ down_none H (ip_stack pos) t0 pops.

(** ** try_last: the root pointer section, then a right-most descent to a leaf *)
Definition last_down (H : history) (rl : nat) (rw : Z) (rc : nat) (n0 : nid)
    (hs : list ihop) (a : hop) (q : list Z) (k : key) (v : val) : Prop :=
  root_down H rl rw rc n0 hs a q /\ rightmost hs /\ h_cont a = CLeaf k v.

(** ** The endings of try_seek, fwd = false *)

(** the last node of the search phase is an inner node below which every key
    is greater than hi (then try_prior runs on the stack) *)
Definition seek_dead_rev (hi : key) (a : hop) (q : list Z) : Prop :=
  exists p cs, h_cont a = CInode p cs /\
    forall bx cx r, find_child bx cs = Some cx -> lex_lt hi (q ++ p ++ bx :: r).

(** ... the two ways it arises: no child for the next byte beta of hi and all
    children bytes are greater (lte_key_byte found nothing); the key prefix
    differs from hi at a byte that is greater than the one of hi
    ([seek_prefix_lt] of Olc/IterModel.v: w < u) *)
Definition seek_no_lte (hi : key) (a : hop) (q : list Z) : Prop :=
  exists p cs beta r, h_cont a = CInode p cs /\ hi = q ++ p ++ beta :: r /\
    forall bx cx, find_child bx cs = Some cx -> beta < bx.

(** The ending "the key prefix differs from hi at a byte that is smaller than
    the one of hi" has no definition of its own here: it is [seek_prefix_gt]
    of Olc/IterModel.v (u < w), followed by a right-most descent.

    ending: no child for the next byte beta of hi, the last child with a
    smaller byte is at index e_idx en (lte_key_byte scans from the greatest
    byte downwards); the entry pushed for the node *)
Definition seek_lte (hi : key) (a : hop) (q : list Z) (en : sentry) : Prop :=
  exists r beta, h_cont a = CInode (e_pre en) (e_cs en) /\ hi = q ++ e_pre en ++ beta :: r /\
    nth_error (e_cs en) (e_idx en) = Some (e_byte en, e_child en) /\ e_byte en < beta /\
    (forall j bj cj, (e_idx en < j)%nat -> nth_error (e_cs en) j = Some (bj, cj) -> beta < bj) /\
    e_node en = h_node a /\ e_pth en = q /\ e_word en = h_word a /\ e_at en = h_lock a.

(** a successful reverse [seek hi] that positions the iterator: started at rl
    (root pointer read-locked), its query interval [t1, t2], the position.
    [rs_hit] includes the root pointer pointing to a leaf (hs = []). *)
Inductive rseek_result (H : history) (hi : key) : nat -> nat -> nat -> ipos -> Prop :=
| rs_hit : forall rl rw rc n0 hs a q k v,
    seek_down H hi rl rw rc n0 hs a q -> h_cont a = CLeaf k v -> lex_le k hi ->
    rseek_result H hi rl (h_lock a) (h_lock a) (seek_pos hs a k v)
| rs_gt : forall rl rw rc n0 hs a q kr vr t0 pops pv tc b' c' rest hs2 a2 q2 k' v',
    seek_down H hi rl rw rc n0 hs a q -> h_cont a = CLeaf kr vr -> lex_lt hi kr ->
    prior_some H (seek_pos hs a kr vr) t0 pops pv tc b' c' rest hs2 a2 q2 k' v' ->
    rseek_result H hi rl t0 (h_lock a2) (prior_pos pv b' c' rest hs2 a2 k' v')
| rs_dead : forall rl rw rc n0 hs a q pops pv tc b' c' rest hs2 a2 q2 k' v',
    seek_down H hi rl rw rc n0 hs a q -> seek_dead_rev hi a q ->
    down_some H (seek_stack hs) (h_lock a) pops pv tc b' c' rest hs2 a2 q2 k' v' ->
    rseek_result H hi rl (h_lock a) (h_lock a2) (prior_pos pv b' c' rest hs2 a2 k' v')
| rs_prefix : forall rl rw rc n0 hs a q hs2 a2 q2 k' v',
    seek_down H hi rl rw rc n0 hs a q -> seek_prefix_gt hi a q ->
    descent H (h_lock a) (h_check a) (h_node a) q hs2 a2 q2 -> rightmost hs2 -> h_cont a2 = CLeaf k' v' ->
    rseek_result H hi rl (h_lock a) (h_lock a2) (desc_pos hs2 a2 k' v' (seek_stack hs))
| rs_lte : forall rl rw rc n0 hs a q en hs2 a2 q2 k' v',
    seek_down H hi rl rw rc n0 hs a q -> seek_lte hi a q en ->
    descent H (h_lock a) (h_check a) (e_child en) (e_cpath en) hs2 a2 q2 -> rightmost hs2 ->
    h_cont a2 = CLeaf k' v' ->
    rseek_result H hi rl (h_lock a) (h_lock a2) (desc_pos hs2 a2 k' v' (en :: seek_stack hs)).

(** the moment at which "nothing below the bound" holds when try_prior empties
    the stack: the re-validation moment t0 of the leaf - or, when the stack
    held only the leaf (the root pointer pointed to it), the moment the leaf
    was read-locked under the root pointer's section *)
Definition end_moment (pos : ipos) (t0 : nat) : nat :=
  match ip_stack pos with [] => ip_at pos | _ :: _ => t0 end.

(** a successful reverse [seek hi] that ends with an empty stack, decided at moment T *)
Inductive rseek_end (H : history) (hi : key) : nat -> nat -> Prop :=
| re_empty : forall rl, root (H rl) = None -> rseek_end H hi rl rl
| re_gt : forall rl rw rc n0 hs a q kr vr t0 pops,
    seek_down H hi rl rw rc n0 hs a q -> h_cont a = CLeaf kr vr -> lex_lt hi kr ->
    prior_none H (seek_pos hs a kr vr) t0 pops -> rseek_end H hi rl (end_moment (seek_pos hs a kr vr) t0)
| re_dead : forall rl rw rc n0 hs a q pops,
    seek_down H hi rl rw rc n0 hs a q -> seek_dead_rev hi a q ->
    down_none H (seek_stack hs) (h_lock a) pops -> rseek_end H hi rl (h_lock a).

(** ** Positions on a root leaf *)

(** the stack holds only the leaf: it was the target of the root pointer when
    it was read-locked (inside the root pointer's section) *)
Definition leafpos_ok (H : history) (pos : ipos) : Prop :=
  w_is_free (ip_word pos) = true /\
  (exists c, hp (H (ip_at pos)) (ip_leaf pos) = Some c /\ word c = ip_word pos /\
             cont c = CLeaf (ip_key pos) (ip_val pos)) /\
  ip_stack pos = [] /\ root (H (ip_at pos)) = Some (ip_leaf pos).

Definition gpos_ok (H : history) (pos : ipos) : Prop := pos_ok H pos \/ leafpos_ok H pos.

(** ** Reverse scans as chains of interval predecessor queries *)

Inductive rscan (H : history) : nat -> ubound -> list delivery -> Prop :=
| rsc_nil : forall t u, rscan H t u []
| rsc_cons : forall t u t1 t2 k v ds,
    (t <= t1 <= t2)%nat -> rquery H t1 t2 u (Some (k, v)) ->
    rscan H t2 (UKey true k) ds -> rscan H t u ((t1, t2, k, v) :: ds).

(** the bound after the last delivery *)
Definition rfinal_bound (u : ubound) (ds : list delivery) : ubound :=
  last (map (fun d : delivery => UKey true (snd (fst d))) ds) u.

Definition rexhausted (H : history) (t1 t2 : nat) (u : ubound) : Prop := rquery H t1 t2 u None.

(** ** Runs of the iterator, reverse *)

(** [riter_run H t pos ds e]: from position pos, no earlier than t, the calls
    of [prior] delivered ds; each call is a successful try_prior, or (after a
    failed try_prior, which leaves no observation) the fallback of
    olc_db::iterator::prior: seek (fwd = false) to the current key, and one
    more try_prior if that key is still there (match).  e = Some te: the run
    ended with the iterator at the end, decided at te; None: the caller
    stopped (scan_range: the key is no longer above to_key; fn returned true). *)
Inductive riter_run (H : history) : nat -> ipos -> list delivery -> option nat -> Prop :=
| rir_stop : forall t pos, riter_run H t pos [] None
| rir_end : forall t pos t0 pops, (t <= t0)%nat -> prior_none H pos t0 pops ->
    riter_run H t pos [] (Some (end_moment pos t0))
| rir_end_seek : forall t pos rl T, (t <= rl)%nat -> rseek_end H (ip_key pos) rl T -> riter_run H t pos [] (Some T)
| rir_end_seek_eq : forall t pos rl t1 t2 pos1 t0 pops, (t <= rl)%nat ->
    rseek_result H (ip_key pos) rl t1 t2 pos1 -> ip_key pos1 = ip_key pos -> (t2 <= t0)%nat ->
    prior_none H pos1 t0 pops -> riter_run H t pos [] (Some (end_moment pos1 t0))
| rir_prior : forall t pos t0 pops pv tc b' c' rest hs a q k' v' ds e, (t <= t0)%nat ->
    prior_some H pos t0 pops pv tc b' c' rest hs a q k' v' ->
    riter_run H (h_lock a) (prior_pos pv b' c' rest hs a k' v') ds e ->
    riter_run H t pos ((t0, h_lock a, k', v') :: ds) e
| rir_seek_lt : forall t pos rl t1 t2 pos1 ds e, (t <= rl)%nat ->
    rseek_result H (ip_key pos) rl t1 t2 pos1 -> ip_key pos1 <> ip_key pos ->
    riter_run H t2 pos1 ds e ->
    riter_run H t pos ((t1, t2, ip_key pos1, ip_val pos1) :: ds) e
| rir_seek_eq : forall t pos rl t1 t2 pos1 t0 pops pv tc b' c' rest hs a q k' v' ds e, (t <= rl)%nat ->
    rseek_result H (ip_key pos) rl t1 t2 pos1 -> ip_key pos1 = ip_key pos -> (t2 <= t0)%nat ->
    prior_some H pos1 t0 pops pv tc b' c' rest hs a q k' v' ->
    riter_run H (h_lock a) (prior_pos pv b' c' rest hs a k' v') ds e ->
    riter_run H t pos ((t0, h_lock a, k', v') :: ds) e.

(** a whole reverse scan: scan_from(hi, fn, false) / scan_range(hi, to, fn)
    with to < hi start with [seek hi] (bound: <= hi); scan(fn, false) starts
    with try_last (bound: +infinity); then a run *)
Inductive riter_scan (H : history) : nat -> ubound -> list delivery -> option nat -> Prop :=
| ris_end : forall t hi rl T, (t <= rl)%nat -> rseek_end H hi rl T -> riter_scan H t (UKey false hi) [] (Some T)
| ris_seek : forall t hi rl t1 t2 pos ds e, (t <= rl)%nat -> rseek_result H hi rl t1 t2 pos ->
    riter_run H t2 pos ds e -> riter_scan H t (UKey false hi) ((t1, t2, ip_key pos, ip_val pos) :: ds) e
| ris_last_empty : forall t rl, (t <= rl)%nat -> root (H rl) = None -> riter_scan H t UInf [] (Some rl)
| ris_last : forall t rl rw rc n0 hs a q k v ds e, (t <= rl)%nat -> last_down H rl rw rc n0 hs a q k v ->
    riter_run H (h_lock a) (seek_pos hs a k v) ds e ->
    riter_scan H t UInf ((rl, h_lock a, k, v) :: ds) e.

(** scan_range(from = hi, to) with to < hi: the loop runs while it.cmp(to) > 0,
    i.e. while the current key is > to; the positions visited are ds ++ [stop]
    where every key of ds is > to and the key of stop is <= to (not passed to
    fn).  What the caller's fn saw is ds. *)
Definition range_stop (to : key) (ds : list delivery) (stop : delivery) : Prop :=
  Forall (fun k => lex_lt to k) (wkeys ds) /\ lex_le (snd (fst stop)) to.
