(** C09d: a successful try_prior from any stack depth is an interval
    PREDECESSOR query: the reverse instances of the step theorems of
    Olc/IterProofs.v.

    A byte-complement mirror (b -> 255 - b) does not reduce this direction
    to the forward one: a proper prefix is smaller than its extensions in
    both the original and the complemented order, so the complement is not an
    order anti-isomorphism on the bounds and keys the queries quantify over
    (a search key may be a proper prefix of a key of the tree). *)
From Coq Require Import List ZArith.
From Unodb Require Import Olc.ReadModel Olc.IterModel Olc.IterAux Olc.IterProofs Olc.IterRevModel.
Import ListNotations.
Local Open Scope Z_scope.

Lemma below_le : forall s hi x, below (UKey s hi) x -> lex_le x hi.
Proof. exact (dbound_le Rev). Qed.

Lemma rpopped_ok_gpopped : forall H t0 p, rpopped_ok H t0 p = gpopped Rev H t0 p.
Proof. reflexivity. Qed.

Lemma down_some_loop : forall {H st t0 pops pv tc b' c' rest hs a q k' v'},
  down_some H st t0 pops pv tc b' c' rest hs a q k' v' ->
  gloop Rev H st t0 pops pv tc (Nat.pred (e_idx pv)) b' c' rest hs a q k' v'.
Proof.
  intros H st t0 pops pv tc b' c' rest hs a q k' v' [N1 N2 N3 N4 N5 N6 N7 N8 N9].
  split; try assumption. split; [exact N5 | reflexivity].
Qed.

Theorem prior_pred_some : forall H pos t0 pops pv tc b' c' rest hs a q k' v',
  disciplined H -> stays_reachable H -> fullpath_stable H -> wf_history H -> pos_ok H pos ->
  prior_some H pos t0 pops pv tc b' c' rest hs a q k' v' ->
  (t0 <= h_lock a)%nat /\ rquery H t0 (h_lock a) (UKey true (ip_key pos)) (Some (k', v')) /\
  pos_ok H (prior_pos pv b' c' rest hs a k' v').
Proof.
  intros H pos t0 pops pv tc b' c' rest hs a q k' v' Hd Hs Hfp W Pok [Nl N].
  exact (step_succ_some Hd Hs Hfp W Rev Pok Nl (down_some_loop N)).
Qed.

Theorem prior_pred_none : forall H pos t0 pops,
  disciplined H -> stays_reachable H -> fullpath_stable H -> wf_history H -> pos_ok H pos ->
  prior_none H pos t0 pops -> pred_query (H t0) (ip_key pos) None.
Proof.
  intros H pos t0 pops Hd Hs Hfp W Pok [Nl [Nst Npp]].
  exact (step_succ_none Hd Hs Hfp W Rev Pok Nl Nst Npp).
Qed.
