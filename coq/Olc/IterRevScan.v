(** C09d: the chains of interval PREDECESSOR queries [rscan] of
    Olc/IterRevModel.v are chains of Olc/ScanChain.v for the reversed order;
    the reverse seek summarised; reverse iterator runs (prior = try_prior or
    the re-seek fallback; positions on inner stacks and on a root leaf) are
    such chains. *)
From Coq Require Import List ZArith Lia Sorted.
From Unodb Require Import Base.Lex Olc.ReadModel Olc.IterModel Olc.IterAux Olc.IterProofs Olc.IterSeek
  Olc.ScanChain Olc.IterScan Olc.IterRevModel Olc.IterRevProofs Olc.IterRevSeek.
Import ListNotations.
Local Open Scope Z_scope.


Lemma rscan_qchain : forall {H t u ds}, rscan H t u ds -> qchain (dlt Rev) (held H) t (below u) ds.
Proof. intros H t u ds S. induction S as [t u | t u t1 t2 k v ds Ht Q S IH]; constructor; assumption. Qed.

Lemma rfinal_bound_cons : forall u t1 t2 k v ds,
  rfinal_bound u ((t1, t2, k, v) :: ds) = rfinal_bound (UKey true k) ds.
Proof. intros. unfold rfinal_bound. cbn [map fst snd]. apply last_cons_default. Qed.

Lemma rfinal_cfinal : forall u ds, cfinal (dlt Rev) (below u) ds = below (rfinal_bound u ds).
Proof.
  intros u ds. revert u. induction ds as [|[[[t1 t2] k] v] ds IH]; intros u; [reflexivity|].
  rewrite rfinal_bound_cons. exact (IH (UKey true k)).
Qed.

Definition rrun_end (H : history) (t : nat) (u : ubound) (ds : list delivery) (e : option nat) : Prop :=
  forall te, e = Some te -> (wlast_moment t ds <= te)%nat /\ rexhausted H te te (rfinal_bound u ds).

Lemma rrun_end_cended : forall {H t u ds e}, rrun_end H t u ds e -> cended (dlt Rev) (held H) t (below u) ds e.
Proof. intros H t u ds e E te Ee. rewrite rfinal_cfinal. exact (E te Ee). Qed.

Lemma below_up : forall u a b, below u a -> lex_lt b a -> below u b.
Proof. intros [|s hi] a b; [intros; exact I | exact (dbound_up Rev s hi a b)]. Qed.

Lemma below_decidable : forall u k, below u k \/ ~ below u k.
Proof. intros [|s hi] k; [left; exact I | exact (dbound_decidable Rev s hi k)]. Qed.

(** scan_range(from, to) with to < from: the loop stops at the first position
    whose key is <= to *)
Theorem rscan_range_complete : forall H t u ds stop to k, rscan H t u (ds ++ [stop]) ->
  range_stop to ds stop -> below u k -> lex_lt to k ->
  (forall t', (t <= t' <= wlast_moment t (ds ++ [stop]))%nat -> has_key (H t') k) -> In k (wkeys ds).
Proof.
  intros H t u ds stop to k S [_ Hstop].
  exact (qchain_range_complete (dlt_trans Rev) (dlt_tricho Rev) stop to k (rscan_qchain S)
           (fun L => lex_lt_not_le _ _ L Hstop)).
Qed.

Theorem rscan_scan : forall H t u ds e, rscan H t u ds -> rrun_end H t u ds e ->
  StronglySorted (fun a b => lex_lt b a) (wkeys ds) /\ Forall (below u) (wkeys ds) /\
  Forall (fun d : delivery => let '(t1, t2, k, v) := d in
            (t <= t1)%nat /\ exists T, (t1 <= T <= t2)%nat /\ entry (H T) k v) ds /\
  (forall k, (forall t', ~ has_key (H t') k) -> ~ In k (wkeys ds)) /\
  (forall k, below u k -> ~ below (rfinal_bound u ds) k ->
     (forall t', (t <= t' <= wlast_moment t ds)%nat -> has_key (H t') k) -> In k (wkeys ds)) /\
  (forall te k, e = Some te -> below u k ->
     (forall t', (t <= t' <= te)%nat -> has_key (H t') k) -> In k (wkeys ds)).
Proof.
  intros H t u ds e S E. rewrite <- rfinal_cfinal.
  exact (qchain_scan (dlt_irrefl Rev) (dlt_trans Rev) (dlt_tricho Rev) (rscan_qchain S) (rrun_end_cended E)
           (below_up u) (below_decidable u)).
Qed.

Lemma rquery_widen : forall H t1 t2 u1 u2 u r, (u1 <= t1)%nat -> (t2 <= u2)%nat ->
  rquery H t1 t2 u r -> rquery H u1 u2 u r.
Proof. intros H t1 t2 u1 u2 u. exact (gquery_widen Rev H t1 t2 u1 u2 (below u)). Qed.

Lemma rscan_step : forall {H t u t1 t2 k v ds e}, (t <= t1 <= t2)%nat -> rquery H t1 t2 u (Some (k, v)) ->
  rscan H t2 (UKey true k) ds /\ rrun_end H t2 (UKey true k) ds e ->
  rscan H t u ((t1, t2, k, v) :: ds) /\ rrun_end H t u ((t1, t2, k, v) :: ds) e.
Proof.
  intros H t u t1 t2 k v ds e Ht Q [S E]. split; [apply rsc_cons; assumption|].
  intros te Ee. rewrite wlast_moment_cons, rfinal_bound_cons. exact (E te Ee).
Qed.

Lemma rscan_end : forall {H t u te}, (t <= te)%nat -> last_query (H te) u None ->
  rscan H t u [] /\ rrun_end H t u [] (Some te).
Proof.
  intros H t u te L Q. split; [constructor|]. intros te' E. injection E as <-.
  split; [exact L | exact (gfirst_gquery Rev H te _ None Q)].
Qed.

Lemma rseek_landed : forall {H hi rl t1 t2 pos}, seek_lands Rev H hi rl t1 t2 (ip_key pos) (ip_val pos) pos ->
  t2 = ip_at pos ->
  (rl <= t1 <= t2)%nat /\ t2 = ip_at pos /\ gpos_ok H pos /\
  rquery H t1 t2 (UKey false hi) (Some (ip_key pos, ip_val pos)) /\
  ((t1 = t2 /\ last_query (H t1) (UKey false hi) (Some (ip_key pos, ip_val pos))) \/ lex_lt (ip_key pos) hi).
Proof. intros H hi rl t1 t2 pos (L & Lk & Q & P) E. unfold gpos_ok. auto 6. Qed.

Theorem rseek_result_facts : forall H, disciplined H -> stays_reachable H -> fullpath_stable H -> wf_history H ->
  forall hi rl t1 t2 pos, rseek_result H hi rl t1 t2 pos ->
  (rl <= t1 <= t2)%nat /\ t2 = ip_at pos /\ gpos_ok H pos /\
  rquery H t1 t2 (UKey false hi) (Some (ip_key pos, ip_val pos)) /\
  ((t1 = t2 /\ last_query (H t1) (UKey false hi) (Some (ip_key pos, ip_val pos))) \/ lex_lt (ip_key pos) hi).
Proof.
  intros H Hd Hs Hfp W hi rl t1 t2 pos S.
  destruct S as [rl rw rc n0 hs a q k v S1 S2 S3
                | rl rw rc n0 hs a q kr vr t0 pops pv tc b' c' rest hs2 a2 q2 k' v' S1 S2 S3 [Nl N]
                | rl rw rc n0 hs a q pops pv tc b' c' rest hs2 a2 q2 k' v' S1 S2 N
                | rl rw rc n0 hs a q hs2 a2 q2 k' v' S1 S2 S3 S4 S5
                | rl rw rc n0 hs a q en hs2 a2 q2 k' v' S1 S2 S3 S4 S5].
  - destruct (seek_hit Hd Hs Hfp W Rev S1 S2 S3) as [L Q]. destruct S1 as [R _].
    split; [lia|]. split; [reflexivity|]. split; [exact (seek_pos_gpos_ok Hd Hs Hfp W R S2)|].
    split; [exact (gfirst_gquery Rev H _ _ _ Q) | left; split; [reflexivity | exact Q]].
  - apply down_some_loop in N. apply rseek_landed; [|reflexivity].
    assert (Hne : hs <> []) by (intros ->; exact (gloop_stack_ne N eq_refl)).
    exact (seek_off_some Hd Hs Hfp W Rev S1 S2 S3 Hne Nl N).
  - apply rseek_landed; [|reflexivity].
    exact (seek_dead_some Hd Hs Hfp W Rev S1 S2 (down_some_loop N)).
  - apply rseek_landed; [|reflexivity].
    exact (seek_prefix_desc Hd Hs Hfp W Rev S1 S2 S3 S4 S5).
  - apply rseek_landed; [|reflexivity].
    exact (seek_adj Hd Hs Hfp W Rev S1 S2 S3 S4 S5).
Qed.

(** a successful reverse seek: an interval query "greatest key <= hi", and the
    stack (or root-leaf) invariant *)
Theorem rseek_result_ok : forall H, disciplined H -> stays_reachable H -> fullpath_stable H -> wf_history H ->
  forall hi rl t1 t2 pos, rseek_result H hi rl t1 t2 pos ->
  (rl <= t1 <= t2)%nat /\ t2 = ip_at pos /\ gpos_ok H pos /\
  rquery H t1 t2 (UKey false hi) (Some (ip_key pos, ip_val pos)).
Proof.
  intros H Hd Hs Hfp W hi rl t1 t2 pos S.
  destruct (rseek_result_facts H Hd Hs Hfp W hi rl t1 t2 pos S) as (L & E & P & Q & _). auto.
Qed.

(** what [match] reports: when the key the seek lands on IS the search key,
    the seek went straight down to that leaf, and the query is atomic *)
Theorem rseek_match_atomic : forall H, disciplined H -> stays_reachable H -> fullpath_stable H -> wf_history H ->
  forall hi rl t1 t2 pos, rseek_result H hi rl t1 t2 pos -> ip_key pos = hi ->
  t1 = t2 /\ last_query (H t1) (UKey false hi) (Some (ip_key pos, ip_val pos)).
Proof.
  intros H Hd Hs Hfp W hi rl t1 t2 pos S E.
  destruct (rseek_result_facts H Hd Hs Hfp W hi rl t1 t2 pos S) as (_ & _ & _ & _ & [A | L]); [exact A|].
  rewrite E in L. exact (False_ind _ (lex_lt_irrefl _ L)).
Qed.

Theorem rseek_end_ok : forall H, disciplined H -> stays_reachable H -> fullpath_stable H -> wf_history H ->
  forall hi rl T, rseek_end H hi rl T ->
  (rl <= T)%nat /\ last_query (H T) (UKey false hi) None.
Proof.
  intros H Hd Hs Hfp W hi rl T S.
  destruct S as [rl Hr | rl rw rc n0 hs a q kr vr t0 pops S1 S2 S3 [Nl [Nst Npp]] | rl rw rc n0 hs a q pops S1 S2 [Nst Npp]].
  - split; [lia|]. apply (empty_tree Rev). exact Hr.
  - exact (seek_off_none Hd Hs Hfp W Rev S1 S2 S3 Nl Nst Npp).
  - exact (seek_dead_none Hd Hs Hfp W Rev S1 S2 Nst Npp).
Qed.


Theorem last_leaf_atomic : forall H rl rw rc n0 a q k v,
  disciplined H -> stays_reachable H -> fullpath_stable H -> wf_history H ->
  last_down H rl rw rc n0 [] a q k v ->
  (rl <= h_lock a)%nat /\ leafpos_ok H (seek_pos [] a k v) /\
  last_query (H (h_lock a)) UInf (Some (k, v)).
Proof.
  intros H rl rw rc n0 a q k v Hd Hs Hfp W (R & _ & Hk).
  exact (extreme_leaf_atomic Hd Hs Hfp W Rev (below UInf) (fun _ => I) R Hk).
Qed.

Theorem seek_leaf_query : forall H x rl rw rc n0 a q k v,
  disciplined H -> stays_reachable H -> fullpath_stable H -> wf_history H ->
  seek_down H x rl rw rc n0 [] a q -> h_cont a = CLeaf k v ->
  (rl <= h_lock a)%nat /\ leafpos_ok H (seek_pos [] a k v) /\
  (lex_le x k -> first_query (H (h_lock a)) false x (Some (k, v))) /\
  (lex_lt k x -> first_query (H (h_lock a)) false x None) /\
  (lex_le k x -> last_query (H (h_lock a)) (UKey false x) (Some (k, v))) /\
  (lex_lt x k -> last_query (H (h_lock a)) (UKey false x) None).
Proof.
  intros H x rl rw rc n0 a q k v Hd Hs Hfp W S Hk.
  destruct (seek_leaf Hd Hs Hfp W Fwd S Hk) as (La & L & F1 & F2).
  destruct (seek_leaf Hd Hs Hfp W Rev S Hk) as (_ & _ & R1 & R2).
  exact (conj La (conj L (conj F1 (conj F2 (conj R1 R2))))).
Qed.


Theorem leafpos_no_prior : forall H pos t0 pops pv tc b' c' rest hs a q k' v', leafpos_ok H pos ->
  ~ prior_some H pos t0 pops pv tc b' c' rest hs a q k' v'.
Proof.
  intros H pos t0 pops pv tc b' c' rest hs a q k' v' (_ & _ & E & _) [_ N].
  exact (gloop_stack_ne (down_some_loop N) E).
Qed.

Lemma gprior_some_pos : forall H pos t0 pops pv tc b' c' rest hs a q k' v', gpos_ok H pos ->
  prior_some H pos t0 pops pv tc b' c' rest hs a q k' v' -> pos_ok H pos.
Proof.
  intros H pos t0 pops pv tc b' c' rest hs a q k' v' P [_ N].
  exact (gpos_loop_pos P (down_some_loop N)).
Qed.

Theorem gprior_none_end : forall H pos t t0 pops,
  disciplined H -> stays_reachable H -> fullpath_stable H -> wf_history H -> gpos_ok H pos ->
  (t <= ip_at pos)%nat -> (t <= t0)%nat -> prior_none H pos t0 pops ->
  (t <= end_moment pos t0)%nat /\ pred_query (H (end_moment pos t0)) (ip_key pos) None.
Proof.
  intros H pos t t0 pops Hd Hs Hfp W P Hat Ht0 [Nl [Nst Npp]].
  exact (gstep_none_end Hd Hs Hfp W Rev P Hat Ht0 Nl Nst Npp).
Qed.


Theorem riter_run_rscan : forall H, disciplined H -> stays_reachable H -> fullpath_stable H -> wf_history H ->
  forall t pos ds e, riter_run H t pos ds e -> gpos_ok H pos -> (t <= ip_at pos)%nat ->
  rscan H t (UKey true (ip_key pos)) ds /\ rrun_end H t (UKey true (ip_key pos)) ds e.
Proof.
  intros H Hd Hs Hfp W t pos ds e R.
  induction R as [t pos | t pos t0 pops Ht N | t pos rl T Ht S | t pos rl t1 t2 pos1 t0 pops Ht S Ek Ht2 N
                 | t pos t0 pops pv tc b' c' rest hs a q k' v' ds e Ht N R IH
                 | t pos rl t1 t2 pos1 ds e Ht S Hne R IH
                 | t pos rl t1 t2 pos1 t0 pops pv tc b' c' rest hs a q k' v' ds e Ht S Ek Ht2 N R IH]; intros Pok Hat.
  - split; [constructor | intros te E; discriminate].
  - destruct (gprior_none_end H pos t t0 pops Hd Hs Hfp W Pok Hat Ht N) as [L Q]. exact (rscan_end L Q).
  - destruct (rseek_end_ok H Hd Hs Hfp W _ _ _ S) as [L Q].
    apply rscan_end; [lia|]. exact (gfirst_none_strict Rev _ _ Q).
  - destruct (rseek_result_ok H Hd Hs Hfp W _ _ _ _ _ S) as (L & Eat & P1 & _).
    destruct (gprior_none_end H pos1 t t0 pops Hd Hs Hfp W P1 ltac:(lia) ltac:(lia) N) as [L' Q].
    rewrite Ek in Q. exact (rscan_end L' Q).
  - pose proof (gprior_some_pos H _ _ _ _ _ _ _ _ _ _ _ _ _ Pok N) as Pok'.
    destruct (prior_pred_some H pos t0 pops pv tc b' c' rest hs a q k' v' Hd Hs Hfp W Pok' N) as (L & Q & P').
    apply rscan_step; [lia | exact Q | exact (IH (or_introl P') (le_n _))].
  - destruct (rseek_result_ok H Hd Hs Hfp W _ _ _ _ _ S) as (L & Eat & P1 & Q).
    apply rscan_step; [lia | exact (gquery_strict Rev H _ _ _ _ _ Q Hne) | exact (IH P1 ltac:(lia))].
  - destruct (rseek_result_ok H Hd Hs Hfp W _ _ _ _ _ S) as (L & Eat & P1 & _).
    pose proof (gprior_some_pos H _ _ _ _ _ _ _ _ _ _ _ _ _ P1 N) as P1'.
    destruct (prior_pred_some H pos1 t0 pops pv tc b' c' rest hs a q k' v' Hd Hs Hfp W P1' N) as (L' & Q & P').
    rewrite Ek in Q. apply rscan_step; [lia | exact Q | exact (IH (or_introl P') (le_n _))].
Qed.

Theorem riter_scan_rscan : forall H, disciplined H -> stays_reachable H -> fullpath_stable H -> wf_history H ->
  forall t u ds e, riter_scan H t u ds e -> rscan H t u ds /\ rrun_end H t u ds e.
Proof.
  intros H Hd Hs Hfp W t u ds e S.
  destruct S as [t hi rl T Ht S | t hi rl t1 t2 pos ds e Ht S R | t rl Ht Hr | t rl rw rc n0 hs a q k v ds e Ht S R].
  - destruct (rseek_end_ok H Hd Hs Hfp W _ _ _ S) as [L Q]. apply rscan_end; [lia | exact Q].
  - destruct (rseek_result_ok H Hd Hs Hfp W _ _ _ _ _ S) as (L & Eat & P1 & Q).
    apply rscan_step; [lia | exact Q | exact (riter_run_rscan H Hd Hs Hfp W _ _ _ _ R P1 ltac:(lia))].
  - apply rscan_end; [exact Ht | exact (empty_tree Rev _ _ Hr)].
  - destruct (last_down_query H _ _ _ _ _ _ _ _ _ Hd Hs Hfp W S) as (L & Q & P1).
    apply rscan_step; [lia | exact Q | exact (riter_run_rscan H Hd Hs Hfp W _ _ _ _ R P1 (le_n _))].
Qed.

(** scan_range(from, to, fn) with to < from: the positions visited are
    ds ++ [stop], fn saw ds; every key of (to, from] that is in the tree
    throughout was passed to fn, and fn saw only keys of (to, from] *)
Theorem riter_scan_range : forall H, disciplined H -> stays_reachable H -> fullpath_stable H -> wf_history H ->
  forall t from to ds stop e, riter_scan H t (UKey false from) (ds ++ [stop]) e -> range_stop to ds stop ->
  Forall (fun k => lex_lt to k /\ lex_le k from) (wkeys ds) /\
  forall k, lex_le k from -> lex_lt to k ->
    (forall t', (t <= t' <= wlast_moment t (ds ++ [stop]))%nat -> has_key (H t') k) -> In k (wkeys ds).
Proof.
  intros H Hd Hs Hfp W t from to ds stop e S Rs.
  destruct (riter_scan_rscan H Hd Hs Hfp W _ _ _ _ S) as [Sc _]. split.
  - destruct (qchain_ordered_bounded (dlt_trans Rev) (rscan_qchain Sc) (below_up _)) as [_ B]. destruct Rs as [Hall Hstop].
    unfold ckeys in B. rewrite map_app in B. apply Forall_app in B. destruct B as [B _].
    rewrite Forall_forall in *. intros k Hk. split; [apply Hall; exact Hk | exact (B k Hk)].
  - intros k. exact (rscan_range_complete H t (UKey false from) ds stop to k Sc Rs).
Qed.
