(** C09d: the reverse try_seek (fwd = false) and try_last of the OLC iterator
    as interval predecessor queries (Olc/IterRevModel.v): the reverse
    instances of Olc/IterSeek.v. *)
From Coq Require Import List ZArith.
From Unodb Require Import Olc.ReadModel Olc.IterModel Olc.IterAux Olc.IterSeek Olc.IterRevModel.
Import ListNotations.
Local Open Scope Z_scope.

Lemma no_lte_dead : forall hi a q, seek_no_lte hi a q -> seek_dead_rev hi a q.
Proof. exact (no_child_dead Rev). Qed.

Lemma prefix_lt_dead_rev : forall hi a q, seek_prefix_lt hi a q -> seek_dead_rev hi a q.
Proof. exact (prefix_dead Rev). Qed.

Theorem rseek_hit_query : forall H hi rl rw rc n0 hs a q k' v',
  disciplined H -> stays_reachable H -> fullpath_stable H -> wf_history H ->
  seek_down H hi rl rw rc n0 hs a q -> h_cont a = CLeaf k' v' -> lex_le k' hi ->
  (rl <= h_lock a)%nat /\ last_query (H (h_lock a)) (UKey false hi) (Some (k', v')).
Proof. intros H hi rl rw rc n0 hs a q k' v' Hd Hs Hfp W. exact (seek_hit Hd Hs Hfp W Rev). Qed.

(** try_last: the greatest key (interval query with the bound +infinity) *)
Theorem last_down_query : forall H rl rw rc n0 hs a q k v,
  disciplined H -> stays_reachable H -> fullpath_stable H -> wf_history H ->
  last_down H rl rw rc n0 hs a q k v ->
  (rl <= h_lock a)%nat /\ rquery H rl (h_lock a) UInf (Some (k, v)) /\ gpos_ok H (seek_pos hs a k v).
Proof.
  intros H rl rw rc n0 hs a q k v Hd Hs Hfp W (R & Hl & Hk).
  exact (extreme_down_query Hd Hs Hfp W Rev (below UInf) (fun _ => I) R Hl Hk).
Qed.
