(** C09c: the chains of interval successor queries [wscan] of Olc/IterModel.v
    are chains of Olc/ScanChain.v, so its scan theorems hold for them; the
    forward seek summarised; forward iterator runs are such chains.
    C09d, second part: the same for the seeks and runs of Olc/IterLeafModel.v,
    where the root pointer may point to a leaf or be null. *)
From Coq Require Import List ZArith Lia Sorted.
From Unodb Require Import Base.Lex Olc.ReadModel Olc.IterModel Olc.IterAux Olc.IterProofs
  Olc.IterSeek Olc.ScanChain Olc.IterRevModel Olc.IterLeafModel.
Import ListNotations.
Local Open Scope Z_scope.


Definition held (H : history) (T : nat) (k : key) (v : val) : Prop := entry (H T) k v.

Lemma wscan_qchain : forall {H t s lo ds}, wscan H t s lo ds -> qchain lex_lt (held H) t (above s lo) ds.
Proof. intros H t s lo ds S. induction S as [t s lo | t s lo t1 t2 k v ds Ht Q S IH]; constructor; assumption. Qed.

Lemma wfinal_bound_cons : forall s lo t1 t2 k v ds,
  wfinal_bound s lo ((t1, t2, k, v) :: ds) = wfinal_bound true k ds.
Proof. intros. unfold wfinal_bound. cbn [map fst snd]. apply last_cons_default. Qed.

Lemma wlast_moment_cons : forall t t1 t2 k v ds, wlast_moment t ((t1, t2, k, v) :: ds) = wlast_moment t2 ds.
Proof. exact clast_moment_cons. Qed.

Lemma wfinal_cfinal : forall s lo ds,
  cfinal lex_lt (above s lo) ds = above (fst (wfinal_bound s lo ds)) (snd (wfinal_bound s lo ds)).
Proof.
  intros s lo ds. revert s lo. induction ds as [|[[[t1 t2] k] v] ds IH]; intros s lo; [reflexivity|].
  rewrite wfinal_bound_cons. exact (IH true k).
Qed.

Definition run_end (H : history) (t : nat) (s : bool) (lo : key) (ds : list delivery) (e : option nat) : Prop :=
  forall te, e = Some te -> (wlast_moment t ds <= te)%nat /\ wexhausted H te te (wfinal_bound s lo ds).

Lemma run_end_cended : forall {H t s lo ds e}, run_end H t s lo ds e -> cended lex_lt (held H) t (above s lo) ds e.
Proof. intros H t s lo ds e E te Ee. rewrite wfinal_cfinal. exact (E te Ee). Qed.

Theorem wscan_scan : forall H t s lo ds e, wscan H t s lo ds -> run_end H t s lo ds e ->
  StronglySorted lex_lt (wkeys ds) /\ Forall (above s lo) (wkeys ds) /\
  Forall (fun d : delivery => let '(t1, t2, k, v) := d in
            (t <= t1)%nat /\ exists T, (t1 <= T <= t2)%nat /\ entry (H T) k v) ds /\
  (forall k, (forall t', ~ has_key (H t') k) -> ~ In k (wkeys ds)) /\
  (forall k, above s lo k -> ~ above (fst (wfinal_bound s lo ds)) (snd (wfinal_bound s lo ds)) k ->
     (forall t', (t <= t' <= wlast_moment t ds)%nat -> has_key (H t') k) -> In k (wkeys ds)) /\
  (forall te k, e = Some te -> above s lo k ->
     (forall t', (t <= t' <= te)%nat -> has_key (H t') k) -> In k (wkeys ds)).
Proof.
  intros H t s lo ds e S E. rewrite <- wfinal_cfinal.
  exact (qchain_scan lex_lt_irrefl lex_lt_trans lex_trichotomy (wscan_qchain S) (run_end_cended E)
           (dbound_up Fwd s lo) (dbound_decidable Fwd s lo)).
Qed.

Lemma wquery_widen : forall H t1 t2 u1 u2 s lo r, (u1 <= t1)%nat -> (t2 <= u2)%nat ->
  wquery H t1 t2 s lo r -> wquery H u1 u2 s lo r.
Proof. intros H t1 t2 u1 u2 s lo. exact (gquery_widen Fwd H t1 t2 u1 u2 (above s lo)). Qed.

Lemma wscan_step : forall {H t s lo t1 t2 k v ds e}, (t <= t1 <= t2)%nat -> wquery H t1 t2 s lo (Some (k, v)) ->
  wscan H t2 true k ds /\ run_end H t2 true k ds e ->
  wscan H t s lo ((t1, t2, k, v) :: ds) /\ run_end H t s lo ((t1, t2, k, v) :: ds) e.
Proof.
  intros H t s lo t1 t2 k v ds e Ht Q [S E]. split; [apply ws_cons; assumption|].
  intros te Ee. rewrite wlast_moment_cons, wfinal_bound_cons. exact (E te Ee).
Qed.

Lemma wscan_end : forall {H t s lo te}, (t <= te)%nat -> first_query (H te) s lo None ->
  wscan H t s lo [] /\ run_end H t s lo [] (Some te).
Proof.
  intros H t s lo te L Q. split; [constructor|]. intros te' E. injection E as <-.
  split; [exact L | exact (gfirst_gquery Fwd H te _ None Q)].
Qed.

(** a successful forward seek: an interval query "least key >= lo", and the
    stack invariant *)
Theorem seek_result_ok : forall H, disciplined H -> stays_reachable H -> fullpath_stable H -> wf_history H ->
  forall lo rl t1 t2 pos, seek_result H lo rl t1 t2 pos ->
  (rl <= t1 <= t2)%nat /\ pos_ok H pos /\ wquery H t1 t2 false lo (Some (ip_key pos, ip_val pos)).
Proof.
  intros H Hd Hs Hfp W lo rl t1 t2 pos S.
  destruct S as [rl rw rc n0 hs a q k v S1 S2 S3 S4
                | rl rw rc n0 hs a q kr vr t0 pops pv tc b' c' rest hs2 a2 q2 k' v' S1 S2 S3 S4 [Nl N]
                | rl rw rc n0 hs a q pops pv tc b' c' rest hs2 a2 q2 k' v' S1 S2 N
                | rl rw rc n0 hs a q hs2 a2 q2 k' v' S1 S2 S3 S4 S5
                | rl rw rc n0 hs a q en hs2 a2 q2 k' v' S1 S2 S3 S4 S5].
  - destruct (seek_hit Hd Hs Hfp W Fwd S1 S2 S3) as [L Q].
    destruct S1 as [R _]. destruct (seek_pos_ok Hd Hs Hfp W R S2 S4) as [P _].
    split; [lia|]. split; [exact P|]. exact (gfirst_gquery Fwd H _ _ _ Q).
  - destruct (seek_off_some Hd Hs Hfp W Fwd S1 S2 S3 S4 Nl (up_some_loop N)) as (L & _ & Q & P). auto.
  - destruct (seek_dead_some Hd Hs Hfp W Fwd S1 S2 (up_some_loop N)) as (L & _ & Q & P). auto.
  - destruct (seek_prefix_desc Hd Hs Hfp W Fwd S1 S2 S3 S4 S5) as (L & _ & Q & P). auto.
  - destruct (seek_gte_query H lo _ _ _ _ _ _ _ _ _ _ _ _ _ Hd Hs Hfp W S1 S2 S3 S4 S5) as (L & Q & P). auto.
Qed.

Theorem seek_end_ok : forall H, disciplined H -> stays_reachable H -> fullpath_stable H -> wf_history H ->
  forall lo rl T, seek_end H lo rl T ->
  (rl <= T)%nat /\ first_query (H T) false lo None.
Proof.
  intros H Hd Hs Hfp W lo rl T S.
  destruct S as [rl Hr | rl rw rc n0 hs a q kr vr t0 pops S1 S2 S3 S4 [Nl [Nst Npp]] | rl rw rc n0 hs a q pops S1 S2 [Nst Npp]].
  - split; [lia|]. apply (empty_tree Fwd). exact Hr.
  - pose proof (seek_off_none Hd Hs Hfp W Fwd S1 S2 S3 Nl Nst Npp) as Q.
    rewrite end_moment_inner in Q by (apply seek_stack_ne; exact S4). exact Q.
  - exact (seek_dead_none Hd Hs Hfp W Fwd S1 S2 Nst Npp).
Qed.


Theorem iter_run_wscan : forall H, disciplined H -> stays_reachable H -> fullpath_stable H -> wf_history H ->
  forall t pos ds e, iter_run H t pos ds e -> pos_ok H pos ->
  wscan H t true (ip_key pos) ds /\ run_end H t true (ip_key pos) ds e.
Proof.
  intros H Hd Hs Hfp W t pos ds e R.
  induction R as [t pos | t pos t0 pops Ht N | t pos rl T Ht S | t pos rl t1 t2 pos1 t0 pops Ht S Ek Ht2 N
                 | t pos t0 pops pv tc b' c' rest hs a q k' v' ds e Ht N R IH
                 | t pos rl t1 t2 pos1 ds e Ht S Hne R IH
                 | t pos rl t1 t2 pos1 t0 pops pv tc b' c' rest hs a q k' v' ds e Ht S Ek Ht2 N R IH]; intros Pok.
  - split; [constructor | intros te E; discriminate].
  - apply wscan_end; [exact Ht|]. exact (next_succ_none H pos t0 pops Hd Hs Hfp W Pok N).
  - destruct (seek_end_ok H Hd Hs Hfp W _ _ _ S) as [L Q].
    apply wscan_end; [lia|]. exact (gfirst_none_strict Fwd _ _ Q).
  - destruct (seek_result_ok H Hd Hs Hfp W _ _ _ _ _ S) as (L & P1 & _).
    apply wscan_end; [lia|]. rewrite <- Ek. exact (next_succ_none H pos1 t0 pops Hd Hs Hfp W P1 N).
  - destruct (next_succ_some H pos t0 pops pv tc b' c' rest hs a q k' v' Hd Hs Hfp W Pok N) as (L & Q & P').
    apply wscan_step; [lia | exact Q | exact (IH P')].
  - destruct (seek_result_ok H Hd Hs Hfp W _ _ _ _ _ S) as (L & P1 & Q).
    apply wscan_step; [lia | exact (gquery_strict Fwd H _ _ _ _ _ Q Hne) | exact (IH P1)].
  - destruct (seek_result_ok H Hd Hs Hfp W _ _ _ _ _ S) as (L & P1 & _).
    destruct (next_succ_some H pos1 t0 pops pv tc b' c' rest hs a q k' v' Hd Hs Hfp W P1 N) as (L' & Q & P').
    rewrite Ek in Q. apply wscan_step; [lia | exact Q | exact (IH P')].
Qed.

Theorem iter_scan_wscan : forall H, disciplined H -> stays_reachable H -> fullpath_stable H -> wf_history H ->
  forall t lo ds e, iter_scan H t lo ds e -> wscan H t false lo ds /\ run_end H t false lo ds e.
Proof.
  intros H Hd Hs Hfp W t lo ds e S. destruct S as [t lo rl T Ht S | t lo rl t1 t2 pos ds e Ht S R].
  - destruct (seek_end_ok H Hd Hs Hfp W _ _ _ S) as [L Q]. apply wscan_end; [lia | exact Q].
  - destruct (seek_result_ok H Hd Hs Hfp W _ _ _ _ _ S) as (L & P1 & Q).
    apply wscan_step; [lia | exact Q | exact (iter_run_wscan H Hd Hs Hfp W _ _ _ _ R P1)].
Qed.

Theorem leafpos_no_next : forall H pos t0 pops pv tc b' c' rest hs a q k' v', leafpos_ok H pos ->
  ~ next_some H pos t0 pops pv tc b' c' rest hs a q k' v'.
Proof.
  intros H pos t0 pops pv tc b' c' rest hs a q k' v' (_ & _ & E & _) [_ N].
  exact (gloop_stack_ne (up_some_loop N) E).
Qed.

Lemma gnext_some_pos : forall H pos t0 pops pv tc b' c' rest hs a q k' v', gpos_ok H pos ->
  next_some H pos t0 pops pv tc b' c' rest hs a q k' v' -> pos_ok H pos.
Proof.
  intros H pos t0 pops pv tc b' c' rest hs a q k' v' P [_ N].
  exact (gpos_loop_pos P (up_some_loop N)).
Qed.

Theorem gnext_none_end : forall H pos t t0 pops,
  disciplined H -> stays_reachable H -> fullpath_stable H -> wf_history H -> gpos_ok H pos ->
  (t <= ip_at pos)%nat -> (t <= t0)%nat -> next_none H pos t0 pops ->
  (t <= end_moment pos t0)%nat /\ succ_query (H (end_moment pos t0)) (ip_key pos) None.
Proof.
  intros H pos t t0 pops Hd Hs Hfp W P Hat Ht0 [Nl [Nst Npp]].
  exact (gstep_none_end Hd Hs Hfp W Fwd P Hat Ht0 Nl Nst Npp).
Qed.

Theorem first_leaf_atomic : forall H rl rw rc n0 a q k v,
  disciplined H -> stays_reachable H -> fullpath_stable H -> wf_history H ->
  first_down H rl rw rc n0 [] a q k v ->
  (rl <= h_lock a)%nat /\ leafpos_ok H (seek_pos [] a k v) /\
  first_query (H (h_lock a)) false [] (Some (k, v)).
Proof.
  intros H rl rw rc n0 a q k v Hd Hs Hfp W (R & _ & Hk).
  exact (extreme_leaf_atomic Hd Hs Hfp W Fwd (above false []) lex_le_nil R Hk).
Qed.

Lemma seek_result_at : forall H lo rl t1 t2 pos, seek_result H lo rl t1 t2 pos -> t2 = ip_at pos.
Proof. intros H lo rl t1 t2 pos S. destruct S; reflexivity. Qed.

Theorem seek_result0_ok : forall H, disciplined H -> stays_reachable H -> fullpath_stable H -> wf_history H ->
  forall lo rl t1 t2 pos, seek_result0 H lo rl t1 t2 pos ->
  (rl <= t1 <= t2)%nat /\ t2 = ip_at pos /\ gpos_ok H pos /\
  wquery H t1 t2 false lo (Some (ip_key pos, ip_val pos)).
Proof.
  intros H Hd Hs Hfp W lo rl t1 t2 pos S.
  destruct S as [rl t1 t2 pos S | rl rw rc n0 a q k v S1 S2 S3].
  - destruct (seek_result_ok H Hd Hs Hfp W _ _ _ _ _ S) as (L & P & Q).
    split; [exact L|]. split; [eapply seek_result_at; exact S|]. split; [left; exact P | exact Q].
  - destruct (seek_leaf Hd Hs Hfp W Fwd S1 S2) as (La & L & Q & _).
    split; [lia|]. split; [reflexivity|]. split; [right; exact L|].
    exact (gfirst_gquery Fwd H _ _ _ (Q S3)).
Qed.

Theorem seek_end0_ok : forall H, disciplined H -> stays_reachable H -> fullpath_stable H -> wf_history H ->
  forall lo rl T, seek_end0 H lo rl T -> (rl <= T)%nat /\ first_query (H T) false lo None.
Proof.
  intros H Hd Hs Hfp W lo rl T S.
  destruct S as [rl T S | rl rw rc n0 a q kr vr t0 pops S1 S2 S3 S4].
  - exact (seek_end_ok H Hd Hs Hfp W _ _ _ S).
  - destruct (seek_leaf Hd Hs Hfp W Fwd S1 S2) as (La & _ & _ & Q).
    split; [exact La | exact (Q S3)].
Qed.

Theorem iter_run0_wscan : forall H, disciplined H -> stays_reachable H -> fullpath_stable H -> wf_history H ->
  forall t pos ds e, iter_run0 H t pos ds e -> gpos_ok H pos -> (t <= ip_at pos)%nat ->
  wscan H t true (ip_key pos) ds /\ run_end H t true (ip_key pos) ds e.
Proof.
  intros H Hd Hs Hfp W t pos ds e R.
  induction R as [t pos | t pos t0 pops Ht N | t pos rl T Ht S | t pos rl t1 t2 pos1 t0 pops Ht S Ek Ht2 N
                 | t pos t0 pops pv tc b' c' rest hs a q k' v' ds e Ht N R IH
                 | t pos rl t1 t2 pos1 ds e Ht S Hne R IH
                 | t pos rl t1 t2 pos1 t0 pops pv tc b' c' rest hs a q k' v' ds e Ht S Ek Ht2 N R IH]; intros Pok Hat.
  - split; [constructor | intros te E; discriminate].
  - destruct (gnext_none_end H pos t t0 pops Hd Hs Hfp W Pok Hat Ht N) as [L Q]. exact (wscan_end L Q).
  - destruct (seek_end0_ok H Hd Hs Hfp W _ _ _ S) as [L Q].
    apply wscan_end; [lia|]. exact (gfirst_none_strict Fwd _ _ Q).
  - destruct (seek_result0_ok H Hd Hs Hfp W _ _ _ _ _ S) as (L & Eat & P1 & _).
    destruct (gnext_none_end H pos1 t t0 pops Hd Hs Hfp W P1 ltac:(lia) ltac:(lia) N) as [L' Q].
    rewrite Ek in Q. exact (wscan_end L' Q).
  - pose proof (gnext_some_pos H _ _ _ _ _ _ _ _ _ _ _ _ _ Pok N) as Pok'.
    destruct (next_succ_some H pos t0 pops pv tc b' c' rest hs a q k' v' Hd Hs Hfp W Pok' N) as (L & Q & P').
    apply wscan_step; [lia | exact Q | exact (IH (or_introl P') (le_n _))].
  - destruct (seek_result0_ok H Hd Hs Hfp W _ _ _ _ _ S) as (L & Eat & P1 & Q).
    apply wscan_step; [lia | exact (gquery_strict Fwd H _ _ _ _ _ Q Hne) | exact (IH P1 ltac:(lia))].
  - destruct (seek_result0_ok H Hd Hs Hfp W _ _ _ _ _ S) as (L & Eat & P1 & _).
    pose proof (gnext_some_pos H _ _ _ _ _ _ _ _ _ _ _ _ _ P1 N) as P1'.
    destruct (next_succ_some H pos1 t0 pops pv tc b' c' rest hs a q k' v' Hd Hs Hfp W P1' N) as (L' & Q & P').
    rewrite Ek in Q. apply wscan_step; [lia | exact Q | exact (IH (or_introl P') (le_n _))].
Qed.

Theorem iter_scan0_wscan : forall H, disciplined H -> stays_reachable H -> fullpath_stable H -> wf_history H ->
  forall t lo ds e, iter_scan0 H t lo ds e -> wscan H t false lo ds /\ run_end H t false lo ds e.
Proof.
  intros H Hd Hs Hfp W t lo ds e S.
  destruct S as [t lo rl T Ht S | t lo rl t1 t2 pos ds e Ht S R | t rl Ht Hr | t rl rw rc n0 hs a q k v ds e Ht S R].
  - destruct (seek_end0_ok H Hd Hs Hfp W _ _ _ S) as [L Q]. apply wscan_end; [lia | exact Q].
  - destruct (seek_result0_ok H Hd Hs Hfp W _ _ _ _ _ S) as (L & Eat & P1 & Q).
    apply wscan_step; [lia | exact Q | exact (iter_run0_wscan H Hd Hs Hfp W _ _ _ _ R P1 ltac:(lia))].
  - apply wscan_end; [exact Ht | exact (empty_tree Fwd _ _ Hr)].
  - destruct S as (R0 & Hl & Hk).
    destruct (extreme_down_query Hd Hs Hfp W Fwd (above false []) lex_le_nil R0 Hl Hk) as (L & Q & P1).
    apply wscan_step; [lia | exact Q | exact (iter_run0_wscan H Hd Hs Hfp W _ _ _ _ R P1 (le_n _))].
Qed.
