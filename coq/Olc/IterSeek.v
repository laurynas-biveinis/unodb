(** C09c / C09d: try_seek, try_first and try_last of the OLC iterator as
    interval queries (Olc/IterModel.v, Olc/IterRevModel.v), the root pointer
    pointing to a leaf and the empty tree included.  The search phase is the
    same code for both directions; each ending is stated over the direction
    [dir] of Olc/IterAux.v. *)
From Coq Require Import List ZArith Lia.
From Unodb Require Import Olc.ReadModel Olc.ReadProofs Olc.IterModel Olc.IterRevModel Olc.IterAux Olc.IterProofs.
Import ListNotations.
Local Open Scope Z_scope.

Theorem empty_tree : forall d g A, root g = None -> gfirst d g A None.
Proof. intros d g A Hr x _ (v & n & pth & c & R & _). exact (reach_has_root _ _ _ R Hr). Qed.

(** The endings of the search phase.  At [Fwd] these are [seek_dead],
    [seek_no_gte], [seek_prefix_lt] (descend) / [seek_prefix_gt] (dead),
    [seek_gte]; at [Rev], [seek_dead_rev], [seek_no_lte], [seek_prefix_gt]
    (descend) / [seek_prefix_lt] (dead), [seek_lte]. *)

Definition gdead (d : dir) (b : key) (a : hop) (q : list Z) : Prop :=
  exists p cs, h_cont a = CInode p cs /\
    forall bx cx r, find_child bx cs = Some cx -> dlt d (q ++ p ++ bx :: r) b.

Definition gno_child (d : dir) (b : key) (a : hop) (q : list Z) : Prop :=
  exists p cs beta r, h_cont a = CInode p cs /\ b = q ++ p ++ beta :: r /\
    forall bx cx, find_child bx cs = Some cx -> dltZ d bx beta.

Definition gprefix (d : dir) (b : key) (a : hop) (q : list Z) : Prop :=
  exists p cs c u w p' r, h_cont a = CInode p cs /\ p = c ++ u :: p' /\ b = q ++ c ++ w :: r /\ dltZ d w u.

Definition gseek_adj (d : dir) (b : key) (a : hop) (q : list Z) (en : sentry) : Prop :=
  exists r beta, h_cont a = CInode (e_pre en) (e_cs en) /\ b = q ++ e_pre en ++ beta :: r /\
    taken en /\ dltZ d beta (e_byte en) /\
    (forall j bj cj, dltN d j (e_idx en) -> nth_error (e_cs en) j = Some (bj, cj) -> dltZ d bj beta) /\
    e_node en = h_node a /\ e_pth en = q /\ e_word en = h_word a /\ e_at en = h_lock a.

Lemma seek_gte_adj : forall lo a q en, seek_gte lo a q en = gseek_adj Fwd lo a q en.
Proof. reflexivity. Qed.

Lemma seek_lte_adj : forall hi a q en, seek_lte hi a q en = gseek_adj Rev hi a q en.
Proof. reflexivity. Qed.

Lemma seek_dead_gdead : forall lo a q, seek_dead lo a q = gdead Fwd lo a q.
Proof. reflexivity. Qed.

Lemma seek_dead_rev_gdead : forall hi a q, seek_dead_rev hi a q = gdead Rev hi a q.
Proof. reflexivity. Qed.

Lemma no_child_dead : forall d b a q, gno_child d b a q -> gdead d b a q.
Proof.
  intros d b a q (p & cs & beta & r & Hk & -> & Hall). exists p, cs. split; [exact Hk|].
  intros bx cx r' Hf. apply dlt_byte. eapply Hall. exact Hf.
Qed.

Lemma prefix_dead : forall d b a q, gprefix (opp d) b a q -> gdead d b a q.
Proof.
  intros d b a q (p & cs & c & u & w & p' & r & Hk & -> & -> & Hlt). exists (c ++ u :: p'), cs. split; [exact Hk|].
  intros bx cx r' Hf. rewrite <- app_assoc. cbn. apply dlt_byte. destruct d; exact Hlt.
Qed.

Lemma no_gte_dead : forall lo a q, seek_no_gte lo a q -> seek_dead lo a q.
Proof. exact (no_child_dead Fwd). Qed.

Lemma prefix_gt_dead : forall lo a q, seek_prefix_gt lo a q -> seek_dead lo a q.
Proof. exact (prefix_dead Fwd). Qed.

Lemma root_leaf_only : forall g n c k v x, wf_state g ->
  reach g n [] -> hp g n = Some c -> cont c = CLeaf k v -> has_key g x -> x = k.
Proof.
  intros g n c k v x W R Hc Hk [vx Ex].
  destruct (through_leaf g n [] c k v x vx W R Hc Hk Ex) as [E _]; [exists x; reflexivity | exact E].
Qed.

Lemma leafpos_only : forall H pos x, wf_history H -> leafpos_ok H pos ->
  has_key (H (ip_at pos)) x -> x = ip_key pos.
Proof.
  intros H pos x W (_ & (c & Hc & _ & Hk) & _ & Hr) Hx.
  eapply root_leaf_only; [apply W | apply reach_root; exact Hr | exact Hc | exact Hk | exact Hx].
Qed.

Lemma leafpos_entry : forall H pos, leafpos_ok H pos -> entry (H (ip_at pos)) (ip_key pos) (ip_val pos).
Proof.
  intros H pos (_ & (c & Hc & _ & Hk) & _ & Hr). exists (ip_leaf pos), [], c.
  split; [apply reach_root; exact Hr | split; assumption].
Qed.

Theorem leafpos_some : forall d H pos (A : key -> Prop), wf_history H -> leafpos_ok H pos ->
  A (ip_key pos) -> gfirst d (H (ip_at pos)) A (Some (ip_key pos, ip_val pos)).
Proof.
  intros d H pos A W L Ak. split; [exact Ak|]. split; [apply leafpos_entry; exact L|].
  intros x _ Lx Hx. rewrite (leafpos_only H pos x W L Hx) in Lx. exact (dlt_irrefl _ _ Lx).
Qed.

Theorem leafpos_none : forall d H pos (A : key -> Prop), wf_history H -> leafpos_ok H pos ->
  ~ A (ip_key pos) -> gfirst d (H (ip_at pos)) A None.
Proof. intros d H pos A W L Hna x Ax Hx. rewrite (leafpos_only H pos x W L Hx) in Ax. exact (Hna Ax). Qed.

Lemma end_moment_inner : forall pos t0, ip_stack pos <> [] -> end_moment pos t0 = t0.
Proof. intros pos t0 Hne. unfold end_moment. destruct (ip_stack pos); [congruence | reflexivity]. Qed.

Lemma seek_stack_ne : forall hs, hs <> [] -> seek_stack hs <> [].
Proof.
  intros [|i hs] Hne; [congruence|]. unfold seek_stack. cbn. apply rev_app_ne.
Qed.

(** a step that delivers cannot start on a root leaf *)
Lemma gpos_loop_pos : forall {d H pos t0 pops pv tc j b' c' rest hs a q k' v'}, gpos_ok H pos ->
  gloop d H (ip_stack pos) t0 pops pv tc j b' c' rest hs a q k' v' -> pos_ok H pos.
Proof.
  intros d H pos t0 pops pv tc j b' c' rest hs a q k' v' [P | (_ & _ & E & _)] N; [exact P|].
  exfalso. exact (gloop_stack_ne N E).
Qed.

Definition seek_lands (d : dir) (H : history) (b : key) (rl t1 t2 : nat) (k' : key) (v' : val) (pos : ipos) : Prop :=
  (rl <= t1 <= t2)%nat /\ dlt d b k' /\ gquery d H t1 t2 (dbound d false b) (Some (k', v')) /\ pos_ok H pos.

Section History.
Context {H : history}.
Hypothesis Hd : disciplined H.
Hypothesis Hs : stays_reachable H.
Hypothesis Hfp : fullpath_stable H.
Hypothesis W : wf_history H.

(** [end_moment]: t0 for an inner stack; for a root leaf the moment the leaf
    was read-locked (the tree was that one entry then) *)
Theorem gstep_none_end : forall d {pos t t0 pops}, gpos_ok H pos -> (t <= ip_at pos)%nat -> (t <= t0)%nat ->
  leaf_again H pos t0 -> ip_stack pos = map fst pops -> Forall (gpopped d H t0) pops ->
  (t <= end_moment pos t0)%nat /\ gfirst d (H (end_moment pos t0)) (dbound d true (ip_key pos)) None.
Proof.
  intros d pos t t0 pops [P | L] Hat Ht0 Nl Nst Npp.
  - pose proof P as (_ & _ & _ & _ & Hne & _). rewrite end_moment_inner by exact Hne.
    split; [exact Ht0|]. exact (step_succ_none Hd Hs Hfp W d P Nl Nst Npp).
  - pose proof L as (_ & _ & E & _). unfold end_moment. rewrite E. split; [exact Hat|].
    apply (leafpos_none d H pos _ W L). apply dlt_irrefl.
Qed.

Lemma descent_path_pre : forall {lo tl tc n pth hs a q}, descent H tl tc n pth hs a q ->
  Forall (fun i => is_pre (e_cpath (ih_e i)) lo) hs -> is_pre pth lo -> is_pre q lo.
Proof.
  intros lo tl tc n pth hs a q D.
  induction D as [tl tc n pth a Ho Hin Hn | tl tc n pth i rest a q Hseen Hin Hn Hp D IH]; intros F P.
  - exact P.
  - inversion F; subst. apply IH; assumption.
Qed.

Lemma root_down_facts : forall {rl rw rc n0 hs a q}, root_down H rl rw rc n0 hs a q ->
  (forall t, (rl <= t <= rc)%nat -> reach (H t) n0 []) /\
  Forall (sentry_ok H) (seek_stack hs) /\
  Forall (fun e => (e_at e <= h_lock a)%nat) (seek_stack hs) /\
  linked (h_node a) q (seek_stack hs) /\
  reach (H (h_lock a)) (h_node a) q /\ hop_observed H a /\ (rl <= h_lock a)%nat.
Proof.
  intros rl rw rc n0 hs a q [Sle Sfree Sw1 Sw2 Sroot Sd].
  assert (R0 : forall t, (rl <= t <= rc)%nat -> reach (H t) n0 []).
  { intros t Ht. apply reach_root.
    rewrite (root_section H rl rc Hd Sle); [exact Sroot | congruence | rewrite Sw1; exact Sfree | exact Ht]. }
  destruct (descent_good Hd Hs Hfp W Sd R0) as (G & Ra & La).
  destruct (descent_before Sd) as [B1 _].
  split; [exact R0|]. unfold seek_stack.
  split; [apply Forall_rev; apply Forall_map; eapply Forall_impl; [|exact G]; intros i [Gi _]; exact Gi|].
  split; [apply Forall_rev; apply Forall_map; exact B1|].
  split; [pose proof (descent_linked Sd [] eq_refl) as L; rewrite app_nil_r in L; exact L|].
  split; [exact Ra|].
  split; [eapply descent_last_observed; exact Sd | exact La].
Qed.

Lemma seek_down_facts : forall {b rl rw rc n0 hs a q}, seek_down H b rl rw rc n0 hs a q ->
  is_pre q b /\ Forall (sentry_ok H) (seek_stack hs) /\
  Forall (fun e => (e_at e <= h_lock a)%nat) (seek_stack hs) /\ linked (h_node a) q (seek_stack hs) /\
  reach (H (h_lock a)) (h_node a) q /\ hop_observed H a /\ (rl <= h_lock a)%nat.
Proof.
  intros b rl rw rc n0 hs a q [R Sp]. split; [|exact (proj2 (root_down_facts R))].
  destruct R as [_ _ _ _ _ Sd]. eapply descent_path_pre; [exact Sd | exact Sp | exists b; reflexivity].
Qed.

Lemma seek_pos_ok : forall {rl rw rc n0 hs a q k v},
  root_down H rl rw rc n0 hs a q -> h_cont a = CLeaf k v -> hs <> [] ->
  pos_ok H (seek_pos hs a k v) /\ ip_path (seek_pos hs a k v) = q.
Proof.
  intros rl rw rc n0 hs a q k v R Hk Hne.
  destruct (root_down_facts R) as (R0 & _ & _ & L & _).
  destruct R as [_ _ _ _ _ Sd]. pose proof (seek_stack_ne hs Hne) as Hne'. unfold seek_stack in *.
  assert (P : pos_ok H (desc_pos hs a k v [])).
  { apply (descent_pos_ok Hd Hs Hfp W (below := []) Sd R0 Hk); [rewrite app_nil_r; exact Hne' | reflexivity | constructor | constructor]. }
  unfold desc_pos in P. rewrite app_nil_r in P. split; [exact P|].
  unfold ip_path, seek_pos, seek_stack. cbn [ip_stack].
  destruct (rev (map ih_e hs)) as [|e st]; [congruence|]. symmetry. eapply linked_top_path. exact L.
Qed.

Lemma seek_pos_leaf_ok : forall {rl rw rc n0 a q k v},
  root_down H rl rw rc n0 [] a q -> h_cont a = CLeaf k v -> leafpos_ok H (seek_pos [] a k v).
Proof.
  intros rl rw rc n0 a q k v R Hk.
  destruct (root_down_facts R) as (_ & _ & _ & _ & Ra & Ho & _).
  destruct R as [_ _ _ _ _ Sd]. inversion Sd; subst.
  unfold leafpos_ok, seek_pos. cbn [ip_leaf ip_key ip_val ip_word ip_at ip_stack].
  split; [destruct Ho as (_ & Hf & _); exact Hf|].
  split; [rewrite <- Hk; apply hop_lock_cell; exact Ho|].
  split; [reflexivity|]. apply reach_nil_root. exact Ra.
Qed.

Lemma seek_pos_gpos_ok : forall {rl rw rc n0 hs a q k v},
  root_down H rl rw rc n0 hs a q -> h_cont a = CLeaf k v -> gpos_ok H (seek_pos hs a k v).
Proof.
  intros rl rw rc n0 hs a q k v R Hk. destruct hs as [|i hs].
  - right. eapply seek_pos_leaf_ok; eassumption.
  - left. eapply seek_pos_ok; try eassumption. discriminate.
Qed.

(** ending 1: the leaf reached is on the asked side of b; atomic at its lock moment *)
Theorem seek_hit : forall d {b rl rw rc n0 hs a q k' v'},
  seek_down H b rl rw rc n0 hs a q -> h_cont a = CLeaf k' v' -> dle d b k' ->
  (rl <= h_lock a)%nat /\ gfirst d (H (h_lock a)) (dbound d false b) (Some (k', v')).
Proof.
  intros d b rl rw rc n0 hs a q k' v' S Hk Hle.
  destruct (seek_down_facts S) as ([r1 ->] & _ & _ & _ & Ra & Ho & La).
  destruct (hop_lock_cell H a Ho) as (c & Hc & _ & Hkc). rewrite Hk in Hkc.
  split; [exact La|]. split; [exact Hle|]. split.
  - exists (h_node a), q, c. auto.
  - intros x Ax Lx [vx Ex].
    destruct (wf_leaf _ (W _) _ _ _ _ _ Ra Hc Hkc) as [r2 ->].
    pose proof (dbetween d _ _ _ _ Ax (dlt_le d _ _ Lx)) as Px.
    destruct (through_leaf _ _ _ _ _ _ _ _ (W _) Ra Hc Hkc Ex Px) as [E _].
    rewrite E in Lx. exact (dlt_irrefl _ _ Lx).
Qed.

(** ending 2: the leaf reached is on the other side of b, then a step from that position *)
Theorem seek_off_some : forall d {b rl rw rc n0 hs a q kr vr t0 pops pv tc j b' c' rest hs2 a2 q2 k' v'},
  seek_down H b rl rw rc n0 hs a q -> h_cont a = CLeaf kr vr -> dlt d kr b -> hs <> [] ->
  leaf_again H (seek_pos hs a kr vr) t0 ->
  gloop d H (seek_stack hs) t0 pops pv tc j b' c' rest hs2 a2 q2 k' v' ->
  seek_lands d H b rl t0 (h_lock a2) k' v' (desc_pos hs2 a2 k' v' (repoint pv j b' c' :: rest)).
Proof.
  intros d b rl rw rc n0 hs a q kr vr t0 pops pv tc j b' c' rest hs2 a2 q2 k' v' S Hk Hlt Hne Nl N.
  destruct (seek_down_facts S) as (Pb & _ & _ & _ & _ & _ & La). destruct S as [R _].
  destruct (seek_pos_ok R Hk Hne) as [Pok Ep]. rewrite <- Ep in Pb.
  destruct (step_some_query Hd Hs Hfp W d false b Pok Nl N Pb) as (L & Lk & Q & P').
  { intros x Ax ->. exact (dlt_not_le d _ _ Hlt Ax). }
  destruct Nl as [Nl _]. cbn in Nl. split; [lia | auto].
Qed.

Theorem seek_off_none : forall d {b rl rw rc n0 hs a q kr vr t0 pops},
  seek_down H b rl rw rc n0 hs a q -> h_cont a = CLeaf kr vr -> dlt d kr b ->
  leaf_again H (seek_pos hs a kr vr) t0 -> seek_stack hs = map fst pops -> Forall (gpopped d H t0) pops ->
  (rl <= end_moment (seek_pos hs a kr vr) t0)%nat /\
  gfirst d (H (end_moment (seek_pos hs a kr vr) t0)) (dbound d false b) None.
Proof.
  intros d b rl rw rc n0 hs a q kr vr t0 pops S Hk Hlt Nl Nst Npp.
  destruct (seek_down_facts S) as (Pb & _ & _ & _ & _ & _ & La). destruct S as [R _].
  assert (Hna : ~ dbound d false b kr) by exact (dlt_not_le d _ _ Hlt).
  destruct hs as [|i hs].
  - split; [exact La|]. exact (leafpos_none d H (seek_pos [] a kr vr) _ W (seek_pos_leaf_ok R Hk) Hna).
  - destruct (seek_pos_ok R Hk ltac:(discriminate)) as [Pok Ep]. rewrite <- Ep in Pb.
    rewrite end_moment_inner by (apply seek_stack_ne; discriminate).
    split; [destruct Nl as [Nl _]; cbn in Nl; lia|].
    apply (step_none_query Hd Hs Hfp W d false b Pok Nl Nst Npp Pb). intros x Ax ->. exact (Hna Ax).
Qed.

(** ending 3: an inner node below which every key is on the other side of b *)
Lemma dead_floor : forall d {b a q}, hop_observed H a -> reach (H (h_lock a)) (h_node a) q -> gdead d b a q ->
  floor H (h_lock a) (dbound d false b) q.
Proof.
  intros d b a q Ho Ra (p & cs & Hk & Hall) x Ax Px [vx Ex].
  destruct (hop_lock_cell H a Ho) as (c & Hc & _ & Hkc). rewrite Hk in Hkc.
  destruct (through_inode _ _ _ _ _ _ _ _ (W _) Ra Hc Hkc Ex Px) as (bx & cx & r & Hf & ->).
  exact (dlt_not_le d _ _ (Hall bx cx r Hf) Ax).
Qed.

Theorem seek_dead_some : forall d {b rl rw rc n0 hs a q pops pv tc j b' c' rest hs2 a2 q2 k' v'},
  seek_down H b rl rw rc n0 hs a q -> gdead d b a q ->
  gloop d H (seek_stack hs) (h_lock a) pops pv tc j b' c' rest hs2 a2 q2 k' v' ->
  seek_lands d H b rl (h_lock a) (h_lock a2) k' v' (desc_pos hs2 a2 k' v' (repoint pv j b' c' :: rest)).
Proof.
  intros d b rl rw rc n0 hs a q pops pv tc j b' c' rest hs2 a2 q2 k' v' S Dd N.
  destruct (seek_down_facts S) as (Pb & Ok & At & L & Ra & Ho & La).
  destruct (loop_some_query Hd Hs Hfp W d Ok L N (dbound_not_lt d false b) Pb (dead_floor d Ho Ra Dd))
    as (L0 & E' & Lk & Q).
  split; [lia|]. split; [exact Lk|]. split.
  - apply (gquery_some d H _ _ false b (h_lock a2)); [exact Lk | lia | exact E' | exact Q].
  - eapply loop_pos; eassumption.
Qed.

Theorem seek_dead_none : forall d {b rl rw rc n0 hs a q pops},
  seek_down H b rl rw rc n0 hs a q -> gdead d b a q ->
  seek_stack hs = map fst pops -> Forall (gpopped d H (h_lock a)) pops ->
  (rl <= h_lock a)%nat /\ gfirst d (H (h_lock a)) (dbound d false b) None.
Proof.
  intros d b rl rw rc n0 hs a q pops S Dd Nst Npp.
  destruct (seek_down_facts S) as (Pb & Ok & At & L & Ra & Ho & La). rewrite Nst in Ok, L.
  split; [exact La|].
  exact (loop_none_query Hd Hs Hfp W d (dbound_not_lt d false b) Pb (dead_floor d Ho Ra Dd) Ok Npp L).
Qed.

Lemma inner_hop_section : forall {a q p cs}, hop_observed H a ->
  h_cont a = CInode p cs -> reach (H (h_lock a)) (h_node a) q ->
  forall t, (h_lock a <= t <= h_check a)%nat ->
    reach (H t) (h_node a) q /\
    exists c, hp (H t) (h_node a) = Some c /\ word c = h_word a /\ cont c = CInode p cs.
Proof.
  intros a q p cs Ho Hk Ra t Ht. split.
  - eapply section_reach_inode; eassumption.
  - rewrite <- Hk. apply section_cell; assumption.
Qed.

Lemma descent_from_inner : forall {a q p cs hs2 a2 q2 k' v'}, hop_observed H a ->
  h_cont a = CInode p cs -> reach (H (h_lock a)) (h_node a) q ->
  descent H (h_lock a) (h_check a) (h_node a) q hs2 a2 q2 -> h_cont a2 = CLeaf k' v' ->
  hs2 <> [] /\ exists b r, k' = q ++ p ++ b :: r.
Proof.
  intros a q p cs hs2 a2 q2 k' v' Ho Hk Ra D Hk2.
  pose proof (inner_hop_section Ho Hk Ra) as Sec.
  inversion D as [tl tc n pth a0 Ho2 Hin Hn | tl tc n pth i rest a0 q0 Hseen Hin Hn Hp D'].
  - exfalso. subst. destruct (Sec _ Hin) as [_ (c & Hc & _ & Hkc)].
    destruct (hop_lock_cell H a2 Ho2) as (c2 & Hc2 & _ & Hkc2). rewrite Hn in Hc2. congruence.
  - subst. split; [discriminate|].
    destruct (Sec _ Hin) as [Ri (c & Hc & _ & Hkc)].
    pose proof Hseen as ((_ & (ci & Hci & _ & Hki) & _) & _). rewrite Hn in Hci.
    assert (e_pre (ih_e i) = p) as Ep by congruence.
    assert (G : ihop_good H i) by (apply ihop_is_good; try assumption; rewrite Hn; exact Ri).
    destruct (descent_leaf Hd Hs Hfp W D' (ihop_child W i G) Hk2) as ([r E] & _).
    exists (e_byte (ih_e i)), r. rewrite E, cpath_below, Ep. reflexivity.
Qed.

(** ending 4: the key prefix of the node lies beyond the bytes of b:
    extreme descent from that node *)
Theorem seek_prefix_desc : forall d {b rl rw rc n0 hs a q hs2 a2 q2 k' v'},
  seek_down H b rl rw rc n0 hs a q -> gprefix d b a q ->
  descent H (h_lock a) (h_check a) (h_node a) q hs2 a2 q2 -> Forall (fun i => near d (ih_e i)) hs2 ->
  h_cont a2 = CLeaf k' v' ->
  seek_lands d H b rl (h_lock a) (h_lock a2) k' v' (desc_pos hs2 a2 k' v' (seek_stack hs)).
Proof.
  intros d b rl rw rc n0 hs a q hs2 a2 q2 k' v' S (p & cs & c & u & w & p' & r & Hk & Ep & Eb & Hlt) D Hl Hk2.
  destruct (seek_down_facts S) as (_ & Ok & At & L & Ra & Ho & La).
  assert (Rn : forall t, (h_lock a <= t <= h_check a)%nat -> reach (H t) (h_node a) q).
  { intros t Ht. apply (inner_hop_section Ho Hk Ra t Ht). }
  destruct (descent_from_inner Ho Hk Ra D Hk2) as (Hne2 & bb & r' & Ek').
  destruct (extreme_query Hd Hs Hfp W d D Rn Hl Hk2) as (_ & E' & Gap).
  destruct (descent_before D) as [_ B2].
  assert (Lk : dlt d b k').
  { rewrite Eb, Ek', Ep, <- app_assoc. cbn. apply dlt_byte. exact Hlt. }
  split; [lia|]. split; [exact Lk|]. split.
  - apply (gquery_some d H _ _ false b (h_lock a2)); [exact Lk | lia | exact E' |].
    intros x Ax Lx. apply Gap; [|exact Lx]. cbn in Ax. rewrite Eb in Ax. rewrite Ek' in Lx.
    exact (dbetween d _ _ _ _ Ax (dlt_le d _ _ Lx)).
  - eapply (descent_pos_ok Hd Hs Hfp W (tl := h_lock a) (tc := h_check a)); try eassumption.
    destruct hs2; [congruence|]. cbn. rewrite <- app_assoc. apply rev_app_ne.
Qed.

Lemma seek_entry_ok : forall {a q en}, hop_observed H a -> reach (H (h_lock a)) (h_node a) q ->
  h_cont a = CInode (e_pre en) (e_cs en) -> taken en ->
  e_node en = h_node a -> e_pth en = q -> e_word en = h_word a -> e_at en = h_lock a ->
  sentry_ok H en /\ forall t, (h_lock a <= t <= h_check a)%nat -> valid_at H en t.
Proof.
  intros a q en Ho Ra Hk Hnth En Ep Ew Ea.
  assert (V : forall t, (h_lock a <= t <= h_check a)%nat -> valid_at H en t).
  { intros t Ht. destruct (inner_hop_section Ho Hk Ra t Ht) as [Rt Ct].
    unfold valid_at. rewrite En, Ep, Ew. split; [exact Ct | exact Rt]. }
  split; [|exact V]. pose proof Ho as (Hle & Hfree & _). destruct (V (h_lock a) ltac:(lia)) as [C0 R0].
  unfold sentry_ok, sentry_seen. rewrite Ea. rewrite Ew at 1.
  split; [split; [exact Hfree | split; [exact C0 | exact Hnth]] | exact R0].
Qed.

(** ending 5: no child for the next byte of b, but one beyond it: that entry
    is pushed, extreme descent below its child *)
Theorem seek_adj : forall d {b rl rw rc n0 hs a q en hs2 a2 q2 k' v'},
  seek_down H b rl rw rc n0 hs a q -> gseek_adj d b a q en ->
  descent H (h_lock a) (h_check a) (e_child en) (e_cpath en) hs2 a2 q2 ->
  Forall (fun i => near d (ih_e i)) hs2 -> h_cont a2 = CLeaf k' v' ->
  seek_lands d H b rl (h_lock a) (h_lock a2) k' v' (desc_pos hs2 a2 k' v' (en :: seek_stack hs)).
Proof.
  intros d b rl rw rc n0 hs a q en hs2 a2 q2 k' v' S
    (r & beta & Hk & Eb & Hnth & Hb & Hsm & En & Ep & Ew & Ea) D Hl Hk2.
  destruct (seek_down_facts S) as (_ & Ok & At & L & Ra & Ho & La).
  destruct (seek_entry_ok Ho Ra Hk Hnth En Ep Ew Ea) as [Oken V].
  assert (Rc : forall t, (h_lock a <= t <= h_check a)%nat -> reach (H t) (e_child en) (e_cpath en)).
  { intros t Ht. apply (valid_child W); [apply V; exact Ht | exact Hnth]. }
  destruct (extreme_query Hd Hs Hfp W d D Rc Hl Hk2) as ([r' Ek'] & E' & Gap).
  destruct (descent_before D) as [_ B2]. pose proof Ho as (Hle & _).
  assert (V0 : valid_at H en (h_lock a)) by (apply V; lia).
  rewrite cpath_below, Ep in Ek'.
  assert (Lk : dlt d b k') by (rewrite Eb, Ek'; apply dlt_byte; exact Hb).
  split; [lia|]. split; [exact Lk|]. split.
  - apply (gquery_some d H _ _ false b (h_lock a2)); [exact Lk | lia | exact E' |].
    intros x Ax Lx. cbn in Ax.
    assert (Px : is_pre q x) by (rewrite Eb in Ax; rewrite Ek' in Lx; exact (dbetween d _ _ _ _ Ax (dlt_le d _ _ Lx))).
    destruct (is_pre_dec (e_cpath en) x) as [Pc|Pn]; [apply Gap; assumption|].
    exists (h_lock a). split; [lia|]. intros [vx Ex]. rewrite <- Ep in Px.
    destruct (valid_through W en _ x vx V0 Ex Px) as (bx & cx & rx & Hf & ->).
    destruct (find_child_some_nth _ _ _ Hf) as [j Hj].
    pose proof (valid_sorted W _ _ V0) as Srt.
    destruct (dltN_tricho d j (e_idx en)) as [Hlt | [-> | Hgt]].
    + rewrite Eb, Ep in Ax. exact (dlt_not_le d _ _ (dlt_byte d _ _ _ _ _ _ (Hsm j bx cx Hlt Hj)) Ax).
    + unfold taken in Hnth. rewrite Hnth in Hj. injection Hj as <- <-. apply Pn. exists rx. symmetry. apply cpath_below.
    + rewrite Ek', Ep in Lx. exact (dlt_byte_inv d _ _ _ _ _ _ Lx (sorted_dir d _ _ _ _ _ _ _ Srt Hgt Hnth Hj)).
  - eapply (descent_pos_ok Hd Hs Hfp W (tl := h_lock a) (tc := h_check a)); try eassumption.
    + apply rev_app_ne.
    + cbn. rewrite En, Ep. repeat split. exact L.
    + constructor; assumption.
    + constructor; [lia | exact At].
Qed.

(** try_first / try_last: the extreme key (A: every key) *)
Theorem extreme_down_query : forall d (A : key -> Prop) {rl rw rc n0 hs a q k v}, (forall x, A x) ->
  root_down H rl rw rc n0 hs a q -> Forall (fun i => near d (ih_e i)) hs -> h_cont a = CLeaf k v ->
  (rl <= h_lock a)%nat /\ gquery d H rl (h_lock a) A (Some (k, v)) /\ gpos_ok H (seek_pos hs a k v).
Proof.
  intros d A rl rw rc n0 hs a q k v HA R Hl Hk.
  destruct (root_down_facts R) as (R0 & _ & _ & _ & _ & _ & La).
  pose proof R as [_ _ _ _ _ Sd].
  destruct (extreme_query Hd Hs Hfp W d Sd R0 Hl Hk) as (_ & E' & Gap).
  split; [exact La|]. split.
  - split; [apply HA|]. split.
    + exists (h_lock a). split; [lia | exact E'].
    + intros x _ Lx. apply Gap; [exists x; reflexivity | exact Lx].
  - eapply seek_pos_gpos_ok; eassumption.
Qed.

Theorem extreme_leaf_atomic : forall d (A : key -> Prop) {rl rw rc n0 a q k v}, (forall x, A x) ->
  root_down H rl rw rc n0 [] a q -> h_cont a = CLeaf k v ->
  (rl <= h_lock a)%nat /\ leafpos_ok H (seek_pos [] a k v) /\ gfirst d (H (h_lock a)) A (Some (k, v)).
Proof.
  intros d A rl rw rc n0 a q k v HA R Hk.
  destruct (root_down_facts R) as (_ & _ & _ & _ & _ & _ & La).
  pose proof (seek_pos_leaf_ok R Hk) as L.
  split; [exact La|]. split; [exact L|]. exact (leafpos_some d H (seek_pos [] a k v) A W L (HA k)).
Qed.

Theorem seek_leaf : forall d {b rl rw rc n0 a q k v},
  seek_down H b rl rw rc n0 [] a q -> h_cont a = CLeaf k v ->
  (rl <= h_lock a)%nat /\ leafpos_ok H (seek_pos [] a k v) /\
  (dle d b k -> gfirst d (H (h_lock a)) (dbound d false b) (Some (k, v))) /\
  (dlt d k b -> gfirst d (H (h_lock a)) (dbound d false b) None).
Proof.
  intros d b rl rw rc n0 a q k v [R _] Hk.
  destruct (root_down_facts R) as (_ & _ & _ & _ & _ & _ & La).
  pose proof (seek_pos_leaf_ok R Hk) as L.
  split; [exact La|]. split; [exact L|]. split.
  - intros Hle. exact (leafpos_some d H (seek_pos [] a k v) _ W L Hle).
  - intros Hlt. apply (leafpos_none d H (seek_pos [] a k v) _ W L). exact (dlt_not_le d _ _ Hlt).
Qed.

End History.

Theorem seek_hit_query : forall H lo rl rw rc n0 hs a q k' v',
  disciplined H -> stays_reachable H -> fullpath_stable H -> wf_history H ->
  seek_down H lo rl rw rc n0 hs a q -> h_cont a = CLeaf k' v' -> lex_le lo k' ->
  (rl <= h_lock a)%nat /\ first_query (H (h_lock a)) false lo (Some (k', v')).
Proof. intros H lo rl rw rc n0 hs a q k' v' Hd Hs Hfp W. exact (seek_hit Hd Hs Hfp W Fwd). Qed.

Theorem seek_gte_query : forall H lo rl rw rc n0 hs a q en hs2 a2 q2 k' v',
  disciplined H -> stays_reachable H -> fullpath_stable H -> wf_history H ->
  seek_down H lo rl rw rc n0 hs a q -> seek_gte lo a q en ->
  descent H (h_lock a) (h_check a) (e_child en) (e_cpath en) hs2 a2 q2 -> leftmost hs2 -> h_cont a2 = CLeaf k' v' ->
  (rl <= h_lock a <= h_lock a2)%nat /\ wquery H (h_lock a) (h_lock a2) false lo (Some (k', v')) /\
  pos_ok H (desc_pos hs2 a2 k' v' (en :: seek_stack hs)).
Proof.
  intros H lo rl rw rc n0 hs a q en hs2 a2 q2 k' v' Hd Hs Hfp W S G D Hl Hk.
  destruct (seek_adj Hd Hs Hfp W Fwd S G D Hl Hk) as (L & _ & Q & P). auto.
Qed.

(** try_first: the least key (interval query with the empty bound) *)
Theorem first_down_query : forall H rl rw rc n0 hs a q k v,
  disciplined H -> stays_reachable H -> fullpath_stable H -> wf_history H ->
  first_down H rl rw rc n0 hs a q k v ->
  (rl <= h_lock a)%nat /\ wquery H rl (h_lock a) false [] (Some (k, v)) /\
  (hs <> [] -> pos_ok H (seek_pos hs a k v)).
Proof.
  intros H rl rw rc n0 hs a q k v Hd Hs Hfp W (R & Hl & Hk).
  destruct (extreme_down_query Hd Hs Hfp W Fwd (above false []) lex_le_nil R Hl Hk) as (L & Q & _).
  split; [exact L|]. split; [exact Q|]. intros Hne. eapply seek_pos_ok; eassumption.
Qed.

Print Assumptions seek_hit_query.
Print Assumptions seek_gte_query.
