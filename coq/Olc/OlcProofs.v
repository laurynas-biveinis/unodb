(** Consequences of trace acceptance for the OLC index (per node: the C07
    theorems; globally: a write-guard holder never waits). *)
From Coq Require Import List Bool PeanoNat.
From Unodb Require Import Lock.LockModel Lock.LockProofs Olc.OlcTrace.
Import ListNotations.

Lemma node_accepts_lrun inits tr b s0 :
  node_accepts inits tr = true -> In (b, s0) inits -> exists s, lrun s0 (project b tr) = Some s.
Proof.
  unfold node_accepts. rewrite forallb_forall. intros H Hin. specialize (H _ Hin). cbn [fst snd] in H.
  destruct (lrun s0 (project b tr)) as [s|]; [eauto|discriminate].
Qed.

Theorem node_inv inits tr b s0 s :
  node_accepts inits tr = true -> In (b, s0) inits -> LInv s0 -> lrun s0 (project b tr) = Some s -> LInv s.
Proof. intros _ _. apply lrun_inv. Qed.

Lemma project_app b a c : project b (a ++ c) = project b a ++ project b c.
Proof. unfold project. now rewrite filter_app, map_app. Qed.

Lemma project_cons_same b e tr : project b ((b, e) :: tr) = e :: project b tr.
Proof. unfold project. cbn [filter fst]. now rewrite Nat.eqb_refl. Qed.

Lemma project_cons_other b b' e tr : b <> b' -> project b ((b', e) :: tr) = project b tr.
Proof. intros Hn. unfold project. cbn [filter fst]. destruct (Nat.eqb_spec b' b); [congruence|reflexivity]. Qed.

Lemma held_after_cons held b x tr :
  held_after held ((b, x) :: tr) = held_after (held_after held [(b, x)]) tr.
Proof. destruct x as [| | |? ? [|]| | | |]; reflexivity. Qed.

Lemma held_after_app held a b : held_after held (a ++ b) = held_after (held_after held a) b.
Proof.
  revert held; induction a as [|[b' e] a IH]; intros held; [reflexivity|].
  cbn [app]. now rewrite held_after_cons, IH, <- held_after_cons.
Qed.

Lemma no_wait_app held a b :
  no_wait_while_holding held (a ++ b) = no_wait_while_holding held a && no_wait_while_holding (held_after held a) b.
Proof.
  revert held; induction a as [|[b' e] a IH]; intros held; [reflexivity|].
  unfold gev in *. cbn [app no_wait_while_holding]. now rewrite IH, (held_after_cons held b' e a), andb_assoc.
Qed.

(** C14: a thread holding a write guard cannot take a waiting step *)
Theorem holder_never_waits inits tr t b :
  olc_trace_ok inits tr = true -> holds_any (held_after [] tr) t = true ->
  olc_trace_ok inits (tr ++ [(b, ESpin t)]) = false.
Proof.
  unfold olc_trace_ok. intros H Hh. apply andb_true_iff in H as [_ H2].
  rewrite no_wait_app, H2. cbn. rewrite Hh. apply andb_false_r.
Qed.
