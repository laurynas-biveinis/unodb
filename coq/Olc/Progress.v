(** C14 (progress accounting, whole index): over every accepted trace of the
    OLC index (Olc/OlcTrace.v) a thread is sent back only because some thread
    acquired the write lock of that very node after the section was opened,
    and in a period in which nobody acquires a write lock, entered with no
    write guard held, no read-lock waits and every validation succeeds: an
    operation running alone is never restarted and never waits - it needs no
    help from the threads that ran before it. *)
From Coq Require Import List ZArith Bool.
From Unodb Require Import Lock.LockModel Lock.LockProofs Lock.LockProgress Olc.OlcTrace Olc.OlcProofs Olc.Deadlock.
Import ListNotations.
Local Open Scope Z_scope.

Theorem failed_check_charged_node inits tr b s0 pre t v mid obs post :
  node_accepts inits tr = true -> inits_ok inits -> In (b, s0) inits ->
  project b tr = pre ++ ERLock t v :: mid ++ ECheck t v obs :: post ->
  w_is_free v = true -> obs <> v ->
  exists t' v', In (EUpgrade t' v' true) mid.
Proof.
  intros A Hi Hin P F N. destruct (node_accepts_lrun _ _ _ _ A Hin) as (s & R). rewrite P in R.
  exact (failed_check_charged _ _ _ _ _ _ _ _ (proj1 (Hi _ _ Hin)) R F N).
Qed.

Theorem failed_upgrade_charged_node inits tr b s0 pre t v mid post :
  node_accepts inits tr = true -> inits_ok inits -> In (b, s0) inits ->
  project b tr = pre ++ ERLock t v :: mid ++ EUpgrade t v false :: post ->
  w_is_free v = true ->
  exists t' v', In (EUpgrade t' v' true) mid.
Proof.
  intros A Hi Hin P F. destruct (node_accepts_lrun _ _ _ _ A Hin) as (s & R). rewrite P in R.
  exact (failed_upgrade_charged _ _ _ _ _ _ _ (proj1 (Hi _ _ Hin)) R F).
Qed.

(** the acquisition is another thread's when the thread itself did not
    acquire that node in between (a reader never does) *)
Corollary failed_check_charged_other inits tr b s0 pre t v mid obs post :
  node_accepts inits tr = true -> inits_ok inits -> In (b, s0) inits ->
  project b tr = pre ++ ERLock t v :: mid ++ ECheck t v obs :: post ->
  w_is_free v = true -> obs <> v ->
  (forall v', ~ In (EUpgrade t v' true) mid) ->
  exists t' v', t' <> t /\ In (EUpgrade t' v' true) mid.
Proof.
  intros A Hi Hin P F N Own.
  destruct (failed_check_charged_node _ _ _ _ _ _ _ _ _ _ A Hi Hin P F N) as (t' & v' & H).
  exists t', v'. split; [|exact H]. intros ->. exact (Own _ H).
Qed.

Definition quiet_g (tr : list gev) : bool := forallb (fun e => negb (is_upgrade_ok (snd e))) tr.

Lemma quiet_project b tr : quiet_g tr = true -> upgrades (project b tr) = O.
Proof.
  induction tr as [|[b' e] tr IH]; [reflexivity|]. cbn [quiet_g forallb snd]. intros Q.
  apply andb_true_iff in Q as [Qe Q]. destruct (Nat.eq_dec b b') as [<-|Hn].
  - rewrite project_cons_same. destruct e as [| | |? ? [|]| | | |]; try discriminate; exact (IH Q).
  - rewrite project_cons_other by exact Hn. exact (IH Q).
Qed.

Theorem quiet_suffix inits pre suf b s0 :
  olc_trace_ok inits (pre ++ suf) = true -> inits_ok inits -> In (b, s0) inits ->
  held_after [] pre = [] -> quiet_g suf = true ->
  exists w, w_is_write_locked w = false /\
    (forall a t obs c, project b suf = a ++ ERLock t obs :: c -> obs = w) /\
    (forall a t v obs c, project b suf = a ++ ECheck t v obs :: c -> obs = w) /\
    (forall a t v c, project b suf = a ++ EUpgrade t v false :: c -> v <> w).
Proof.
  intros Hok Hi Hin Hh Q. apply andb_true_iff in Hok as [A _].
  destruct (node_accepts_lrun _ _ _ _ A Hin) as (s & R). rewrite project_app, lrun_app in R.
  destruct (lrun s0 (project b pre)) as [s1|] eqn:R1; [|discriminate].
  destruct (node_state _ _ _ _ _ Hi Hin R1) as (I1 & H1). rewrite Hh in H1.
  assert (G1 : guards s1 = []) by (destruct (guards s1) as [|u g]; [reflexivity|destruct (H1 u); now left]).
  exists (lw s1). exact (quiet_period s1 _ s I1 G1 (quiet_project b suf Q) R).
Qed.

Corollary quiet_sections_validate inits pre suf b s0 a t v m obs c :
  olc_trace_ok inits (pre ++ suf) = true -> inits_ok inits -> In (b, s0) inits ->
  held_after [] pre = [] -> quiet_g suf = true ->
  project b suf = a ++ ERLock t v :: m ++ ECheck t v obs :: c ->
  obs = v /\ w_is_write_locked v = false.
Proof.
  intros Hok Hi Hin Hh Q E.
  destruct (quiet_suffix _ _ _ _ _ Hok Hi Hin Hh Q) as (w & Wl & P1 & P2 & _).
  pose proof (P1 _ _ _ _ E) as ->. split; [|exact Wl].
  apply (P2 (a ++ ERLock t w :: m) t w obs c). now rewrite <- app_assoc.
Qed.
