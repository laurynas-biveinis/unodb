(** Meaning of the read-protocol acceptor (Olc/Protocol.v). *)
From Coq Require Import List Bool Lia ZArith.
From Unodb Require Import Olc.Protocol.
Import ListNotations.

Definition validated_after (n : blk) (l : list pev) (i : nat) : Prop :=
  exists j e, (i < j)%nat /\ nth_error l j = Some e /\ validates n e = true.

Lemma validated_after_cons n x l i : validated_after n l i -> validated_after n (x :: l) (S i).
Proof. intros (j & e & Hj & Hn & He). exists (S j), e. split; [lia|auto]. Qed.

Lemma validated_later_after n x l : validated_later n l = true -> validated_after n (x :: l) 0.
Proof.
  intros H. apply existsb_exists in H as (e & Hin & He). apply In_nth_error in Hin as (j & Hj).
  exists (S j), e. split; [lia|auto].
Qed.

Lemma existsb_beq_In n l : existsb (beq n) l = true -> In n l.
Proof.
  intros H. apply existsb_exists in H as (x & Hin & Hx). apply Nat.eqb_eq in Hx. now subst.
Qed.

(** R1: every load is under the thread's own write guard, on one of its own
    nodes, or validated later *)
Theorem loads_covered_spec : forall l ho, loads_covered ho l = true ->
  forall i n, nth_error l i = Some (PLoad n) ->
    In n (fst (fold_left upd (firstn i l) ho)) \/ In n (snd (fold_left upd (firstn i l) ho)) \/
    exists j e, (i < j)%nat /\ nth_error l j = Some e /\ validates n e = true.
Proof.
  induction l as [|x l IH]; intros ho H [|i] n Hi; try discriminate;
    cbn [loads_covered] in H; apply andb_true_iff in H as [Hx Hl]; cbn [firstn fold_left].
  - injection Hi as ->. rewrite !orb_true_iff in Hx. destruct Hx as [[Hx|Hx]|Hx].
    + left. now apply existsb_beq_In.
    + right. left. now apply existsb_beq_In.
    + right. right. now apply validated_later_after.
  - destruct (IH _ Hl i n Hi) as [A|[A|A]]; auto. right. right. now apply validated_after_cons.
Qed.

(** R2: a section opened before another one is validated after that other one was opened *)
Definition is_open (e : pev) : bool := match e with PRLock _ true _ => true | _ => false end.

(** what [coupled] asks of the rest of the list when a section of n is opened *)
Definition after (n : blk) : list pev -> bool :=
  fix after (r : list pev) : bool :=
    match r with
    | [] => true
    | PRLock _ true _ :: r' => validated_later n r'
    | _ :: r' => after r'
    end.

Lemma coupled_cons n w l : coupled (PRLock n true w :: l) = after n l && coupled l.
Proof. reflexivity. Qed.

Lemma coupled_tail x l : coupled (x :: l) = true -> coupled l = true.
Proof. destruct x as [n [|] w| | | | | | |]; auto. rewrite coupled_cons. now intros [_ H]%andb_true_iff. Qed.

Lemma after_cons_other n x r : is_open x = false -> after n (x :: r) = after n r.
Proof. destruct x as [m [|] w| | | | | | |]; [discriminate|reflexivity..]. Qed.

Lemma after_spec n : forall r, after n r = true ->
  forall j m w, nth_error r j = Some (PRLock m true w) ->
    (forall q, (q < j)%nat -> forall e, nth_error r q = Some e -> is_open e = false) ->
    validated_after n r j.
Proof.
  induction r as [|x r IH]; intros H [|j] m w Hj Hfirst; try discriminate.
  - injection Hj as ->. now apply validated_later_after.
  - rewrite after_cons_other in H by (apply (Hfirst O); [lia|reflexivity]).
    apply validated_after_cons, (IH H j m w Hj). intros q Hq e. apply (Hfirst (S q)). lia.
Qed.

Theorem coupled_spec : forall l, coupled l = true ->
  forall i n w, nth_error l i = Some (PRLock n true w) ->
  forall j m w', (i < j)%nat -> nth_error l j = Some (PRLock m true w') ->
    (forall q, (i < q < j)%nat -> forall e, nth_error l q = Some e -> is_open e = false) ->
    exists q e, (j < q)%nat /\ nth_error l q = Some e /\ validates n e = true.
Proof.
  induction l as [|x l IH]; intros H [|i] n w Hi [|j] m w' Hij Hj Hbetween; try discriminate; try lia;
    apply validated_after_cons.
  - injection Hi as ->. rewrite coupled_cons in H. apply andb_true_iff in H as [Ha _].
    apply (after_spec n l Ha j m w' Hj). intros q Hq e. apply (Hbetween (S q)). lia.
  - apply (IH (coupled_tail _ _ H) i n w Hi j m w' ltac:(lia) Hj). intros q Hq e. apply (Hbetween (S q)). lia.
Qed.

(** R3 and the composition *)
Theorem op_ok_spec : forall l, op_ok l = true ->
  loads_covered ([], allocs l) (last_attempt l) = true /\ coupled (last_attempt l) = true /\ held_at_end l = [] /\
  versions_own [] l = true.
Proof.
  intros l H. unfold op_ok in H. rewrite !andb_true_iff in H. destruct H as ((((H1 & H2) & H3) & H4) & _).
  repeat split; auto. now destruct (held_at_end l).
Qed.

(** R4: every check / upgrade uses a word this thread read from that very node earlier *)
Definition read_before (n : blk) (v : Z) (l : list pev) (i : nat) : Prop :=
  exists j ok', (j < i)%nat /\ nth_error l j = Some (PRLock n ok' v).

Lemma read_before_cons n v x l i : read_before n v l i -> read_before n v (x :: l) (S i).
Proof. intros (j & ok' & Hj & Hn). exists (S j), ok'. split; [lia|exact Hn]. Qed.

Theorem versions_own_spec : forall l seen, versions_own seen l = true ->
  forall i n ok v, (nth_error l i = Some (PCheck n ok v) \/ nth_error l i = Some (PUpgrade n ok v)) ->
    In (n, v) seen \/ exists j ok', (j < i)%nat /\ nth_error l j = Some (PRLock n ok' v).
Proof.
  induction l as [|x l IH]; intros seen H [|i] n ok v Hi; try (destruct Hi; discriminate).
  - left. assert (E : existsb (fun s => beq (fst s) n && Z.eqb (snd s) v) seen = true).
    { destruct Hi as [Hi|Hi]; injection Hi as ->; now apply andb_true_iff in H as [H _]. }
    apply existsb_exists in E as ((m, w) & Hm & Hx). apply andb_true_iff in Hx as [A%Nat.eqb_eq B%Z.eqb_eq].
    cbn in A, B. now subst.
  - assert (R : exists seen', versions_own seen' l = true /\
                  (In (n, v) seen' -> In (n, v) seen \/ read_before n v (x :: l) (S i))).
    { destruct x as [m ok0 w|m ok0 w|m ok0 w|m|m|m|m|m]; cbn [versions_own] in H;
        try apply andb_true_iff in H as [_ H]; try (exists seen; now auto).
      exists ((m, w) :: seen). split; [exact H|]. intros [A|A]; [|now left].
      injection A as -> ->. right. exists O, ok0. split; [lia|reflexivity]. }
    destruct R as (seen' & H' & Hs). destruct (IH _ H' i n ok v Hi) as [A|A]; [now apply Hs|].
    right. now apply read_before_cons.
Qed.

(** R1 for scans: in a scan accepted by [scan_ok] that contains no failed
    validation, every field load from a node is followed by a successful
    check / read-unlock / upgrade of that very node *)
Lemma scan_loads_covered_spec : forall l, scan_loads_covered l = true ->
  forall a n b, l = a ++ PLoad n :: b ->
    existsb (fun x => validates n x || is_failure x) b = true.
Proof.
  induction l as [|e l IH]; intros H a n b E.
  - destruct a; discriminate.
  - cbn [scan_loads_covered] in H. apply andb_true_iff in H as [H1 H2].
    destruct a as [|x a]; cbn [app] in E; injection E as -> ->; [exact H1|].
    eapply IH; [exact H2|reflexivity].
Qed.

Theorem scan_loads_validated : forall l, scan_ok l = true -> forallb (fun x => negb (is_failure x)) l = true ->
  forall a n b, l = a ++ PLoad n :: b -> existsb (validates n) b = true.
Proof.
  intros l H NF a n b E. unfold scan_ok in H. apply andb_true_iff in H as [H _]. apply andb_true_iff in H as [_ H].
  pose proof (scan_loads_covered_spec l H a n b E) as C.
  apply existsb_exists in C as (x & Hx & Hv). apply existsb_exists. exists x. split; [exact Hx|].
  apply orb_true_iff in Hv as [Hv|Hf]; [exact Hv|exfalso].
  rewrite forallb_forall in NF. assert (Hin : In x l) by (subst l; apply in_or_app; right; right; exact Hx).
  specialize (NF x Hin). rewrite Hf in NF. discriminate.
Qed.

(** R6: where an accepted list read-locks a node c other than the root pointer
    lock, the rest is accepted from some state whose pending load, if any, is
    from c itself.  (That state is existential, not the one the prefix leads
    to; that a descent with an unvalidated load is rejected is shown on the
    examples of Properties_C03c.v.) *)

Lemma ptr_validated_suffix a : forall ho pending l,
  ptr_validated ho pending (a ++ l) = true -> exists ho' pending', ptr_validated ho' pending' l = true.
Proof.
  induction a as [|x a IH]; intros ho p l H; [eauto|].
  cbn [app ptr_validated] in H.
  destruct x as [n ok0 w0|n [|] v|n [|] v|n|n|n|n|n]; try (eapply IH; exact H).
  - destruct (beq n root_blk); [eapply IH; exact H|].
    destruct p as [m|]; [destruct (beq m n); [|discriminate]|]; eapply IH; exact H.
  - destruct (existsb (beq n) (fst ho) || existsb (beq n) (snd ho)); eapply IH; exact H.
Qed.

Lemma ptr_validated_rlock ho pending c ok w b :
  ptr_validated ho pending (PRLock c ok w :: b) = true -> beq c root_blk = false ->
  pending = None \/ pending = Some c.
Proof.
  intros H Hc. cbn [ptr_validated] in H. rewrite Hc in H.
  destruct pending as [m|]; [|now left]. destruct (beq m c) eqn:E; [|discriminate].
  right. apply Nat.eqb_eq in E. now subst.
Qed.

Lemma ptr_validated_app_rlock : forall l ho pending a c ok w b,
  l = a ++ PRLock c ok w :: b -> ptr_validated ho pending l = true -> beq c root_blk = false ->
  exists ho' pending', ptr_validated ho' pending' (PRLock c ok w :: b) = true /\
     (pending' = None \/ pending' = Some c).
Proof.
  intros l ho pending a c ok w b -> H Hc. destruct (ptr_validated_suffix _ _ _ _ H) as (ho' & p' & H').
  exists ho', p'. split; [exact H'|]. now apply (ptr_validated_rlock ho' p' c ok w b).
Qed.
