(** C03 (reader side): proofs for Olc/ReadModel.v.

    - lookup is a function of the heap (lookup_deterministic);
    - every hop of a valid run is in the tree with the cell the reader saw
      throughout its section, on the search path of the key at its lock
      moment, and -- for inner nodes -- on that same path throughout the
      section (hops_on_path);
    - the result of the run is the result of a lookup at some moment between
      the run's read-lock of the root pointer and its last validation
      (reader_linearizable; the proof takes the lock moment of the last hop). *)
From Coq Require Import List ZArith Arith Lia.
From Unodb Require Import Lock.LockModel Olc.ReadModel.
Import ListNotations.
Local Open Scope Z_scope.
Local Open Scope nat_scope.


Lemma free_not_1 : forall v, w_is_free v = true -> v <> 1%Z.
Proof. intros v Hf ->. discriminate. Qed.

Lemma free_not_obsolete : forall v, w_is_free v = true -> w_is_obsolete v = false.
Proof. intros v Hf. apply Z.eqb_neq, free_not_1, Hf. Qed.


Lemma firstn_app_exact : forall (A : Type) (a b : list A), firstn (length a) (a ++ b) = a.
Proof. induction a as [|x a IH]; intros b; cbn; [reflexivity | f_equal; apply IH]. Qed.

Lemma skipn_app_exact : forall (A : Type) (a b : list A), skipn (length a) (a ++ b) = b.
Proof. induction a as [|x a IH]; intros b; cbn; [reflexivity | apply IH]. Qed.

Lemma nth_error_app_exact : forall (A : Type) (a b : list A) x, nth_error (a ++ x :: b) (length a) = Some x.
Proof. induction a as [|y a IH]; intros b x; cbn; [reflexivity | apply IH]. Qed.

Lemma key_split (a p s : list Z) b :
  prefix_at p (length a) (a ++ p ++ b :: s) /\
  nth_error (a ++ p ++ b :: s) (length a + length p) = Some b /\
  firstn (length a + length p + 1) (a ++ p ++ b :: s) = a ++ p ++ [b].
Proof.
  split; [|split].
  - unfold prefix_at. now rewrite skipn_app_exact, firstn_app_exact.
  - rewrite app_assoc, <- app_length. apply nth_error_app_exact.
  - now rewrite <- Nat.add_assoc, !firstn_app_2.
Qed.

Lemma nth_error_skipn : forall (A : Type) d (k : list A) n, nth_error k (d + n) = nth_error (skipn d k) n.
Proof. induction d as [|d IH]; intros [|x k] n; cbn; auto. now destruct n. Qed.

Lemma prefix_at_split d (k p : list Z) b :
  prefix_at p d k -> nth_error k (d + length p) = Some b ->
  exists a s, k = a ++ p ++ b :: s /\ length a = d.
Proof.
  intros Hp Hn. exists (firstn d k).
  assert (Hd : d + length p < length k) by (apply nth_error_Some; congruence).
  rewrite nth_error_skipn in Hn. apply nth_error_split in Hn as (l1 & s & E & L).
  unfold prefix_at in Hp. rewrite E, <- L, firstn_app_exact in Hp. subst l1.
  exists s. rewrite <- E, firstn_skipn. split; [reflexivity|apply firstn_length_le; lia].
Qed.

Lemma path_extend : forall d (k p : list Z) b,
  prefix_at p d k -> nth_error k (d + length p) = Some b ->
  firstn d k ++ p ++ [b] = firstn (d + length p + 1) k /\ d + length p + 1 <= length k.
Proof.
  intros d k p b Hp Hn. split; [|rewrite Nat.add_1_r; apply nth_error_Some; congruence].
  destruct (prefix_at_split d k p b Hp Hn) as (a & s & -> & <-).
  rewrite firstn_app_exact. symmetry. apply key_split.
Qed.

Lemma path_split : forall d (k pth p : list Z) b,
  firstn d k = pth ++ p ++ [b] -> d <= length k ->
  pth = firstn (length pth) k /\ prefix_at p (length pth) k /\
  nth_error k (length pth + length p) = Some b /\
  d = length pth + length p + 1 /\ length pth <= length k.
Proof.
  intros d k pth p b Hf Hd.
  assert (Hlen : d = length pth + length p + 1).
  { pose proof (firstn_length_le k Hd) as L. rewrite Hf in L. rewrite !app_length in L. cbn in L. lia. }
  pose proof (firstn_skipn d k) as E. rewrite Hf, <- !app_assoc in E. cbn [app] in E.
  destruct (key_split pth p (skipn d k) b) as (A & B & _). rewrite E in A, B.
  repeat split; auto; [|lia]. rewrite <- E. symmetry. apply firstn_app_exact.
Qed.


Lemma lookup_rel_fun : forall h k n d r1, lookup_rel h k n d r1 ->
  forall r2, lookup_rel h k n d r2 -> r1 = r2.
Proof.
  intros h k n d r1 H1.
  induction H1 as [n d c v Hc Hk | n d c k' v Hc Hk Hne | n d c p cs Hc Hk Hnp
                  | n d c p cs Hc Hk Hp Hn | n d c p cs c' r Hc Hk Hp Hn Hl IH];
    intros r2 H2; inversion H2 as [n0 d0 c0 v0 Hc0 Hk0 | n0 d0 c0 k0 v0 Hc0 Hk0 Hne0 | n0 d0 c0 p0 cs0 Hc0 Hk0 Hnp0
                  | n0 d0 c0 p0 cs0 Hc0 Hk0 Hp0 Hn0 | n0 d0 c0 p0 cs0 c0' r0 Hc0 Hk0 Hp0 Hn0 Hl0]; subst;
    rewrite Hc in Hc0; injection Hc0 as Hc0; subst c0;
    rewrite Hk in Hk0; try discriminate; injection Hk0 as ?; subst;
    try reflexivity; try contradiction; try congruence.
  apply IH. rewrite Hn in Hn0. injection Hn0 as Hn0. subst. exact Hl0.
Qed.

Theorem lookup_deterministic : forall g k r1 r2, lookup g k r1 -> lookup g k r2 -> r1 = r2.
Proof.
  unfold lookup. intros g k r1 r2 H1 H2. destruct (root g) as [n|].
  - eapply lookup_rel_fun; eassumption.
  - congruence.
Qed.


Lemma reach_lookup : forall g k n pth, reach g n pth ->
  forall d, pth = firstn d k -> d <= length k ->
  forall r, lookup_rel (hp g) k n d r -> lookup g k r.
Proof.
  intros g k n pth Hr.
  induction Hr as [n Hroot | n pth c p cs b c' Hr IH Hc Hcont Hf]; intros d Hp Hd r Hl.
  - assert (d = 0) as ->.
    { destruct d as [|d]; [reflexivity|]. destruct k; cbn in Hp, Hd; [lia | discriminate]. }
    unfold lookup. rewrite Hroot. exact Hl.
  - symmetry in Hp. destruct (path_split _ _ _ _ _ Hp Hd) as (P1 & P2 & P3 & P4 & P5).
    apply (IH (length pth) P1 P5 r).
    eapply lr_step.
    + exact Hc.
    + exact Hcont.
    + exact P2.
    + unfold next_child. rewrite P3. exact Hf.
    + rewrite <- P4. exact Hl.
Qed.


Lemma section_cell : forall H a, disciplined H -> hop_observed H a ->
  forall t, h_lock a <= t <= h_check a ->
  exists c, hp (H t) (h_node a) = Some c /\ word c = h_word a /\ cont c = h_cont a.
Proof.
  intros H a [Hd _] (Hle & Hfree & (c1 & Hc1 & Hw1 & Hk1) & (c2 & Hc2 & Hw2)) t Ht.
  exists c1. split; [|split; assumption].
  apply (Hd (h_node a) (h_lock a) (h_check a) c1 c2 Hle Hc1 Hc2); [congruence | rewrite Hw1; exact Hfree | exact Ht].
Qed.

Lemma root_section : forall H t1 t2, disciplined H -> t1 <= t2 ->
  root_word (H t1) = root_word (H t2) -> w_is_free (root_word (H t1)) = true ->
  forall t, t1 <= t <= t2 -> root (H t) = root (H t1).
Proof. intros H t1 t2 [_ Hd] Hle Hw Hf t Ht. eapply Hd; eassumption. Qed.

Lemma section_reach : forall H a pth, disciplined H -> stays_reachable H -> hop_observed H a ->
  reach (H (h_lock a)) (h_node a) pth ->
  forall t, h_lock a <= t <= h_check a -> exists pth', reach (H t) (h_node a) pth'.
Proof.
  intros H a pth Hd Hs Ho Hr t Ht.
  apply (Hs (h_lock a) t (h_node a) pth); [lia | exact Hr |].
  intros u Hu. destruct (section_cell H a Hd Ho u) as (c & Hc & Hw & _); [lia|].
  exists c. split; [exact Hc|]. apply free_not_obsolete. rewrite Hw.
  destruct Ho as (_ & Hfree & _). exact Hfree.
Qed.

Lemma section_reach_inode : forall H a pth p cs,
  disciplined H -> stays_reachable H -> fullpath_stable H -> hop_observed H a ->
  h_cont a = CInode p cs -> reach (H (h_lock a)) (h_node a) pth ->
  forall t, h_lock a <= t <= h_check a -> reach (H t) (h_node a) pth.
Proof.
  intros H a pth p cs Hd Hs [fp Hfp] Ho Hk Hr t Ht.
  destruct (section_reach H a pth Hd Hs Ho Hr t Ht) as [pth' Hr'].
  destruct (section_cell H a Hd Ho t Ht) as (ct & Hct & _ & Hkt).
  assert (Hl : h_lock a <= h_lock a <= h_check a) by lia.
  destruct (section_cell H a Hd Ho _ Hl) as (c0 & Hc0 & _ & Hk0).
  rewrite Hk in Hkt, Hk0.
  pose proof (Hfp _ _ _ _ _ _ Hr Hc0 Hk0) as E0.
  pose proof (Hfp _ _ _ _ _ _ Hr' Hct Hkt) as Et.
  rewrite <- E0 in Et. apply app_inv_tail in Et. subst pth'. exact Hr'.
Qed.


Definition hop_good (H : history) (k : key) (a : hop) (d : nat) : Prop :=
  forall t, h_lock a <= t <= h_check a ->
    ((t = h_lock a \/ exists p cs, h_cont a = CInode p cs) -> reach (H t) (h_node a) (firstn d k)) /\
    (exists pth, reach (H t) (h_node a) pth) /\
    exists c, hp (H t) (h_node a) = Some c /\ word c = h_word a /\ cont c = h_cont a.

Lemma hop_good_intro : forall H k a d,
  disciplined H -> stays_reachable H -> fullpath_stable H -> hop_observed H a ->
  reach (H (h_lock a)) (h_node a) (firstn d k) -> hop_good H k a d.
Proof.
  intros H k a d Hd Hs Hfp Ho Hr t Ht. split; [|split].
  - intros [-> | (p & cs & Hk)]; [exact Hr|].
    eapply section_reach_inode; eassumption.
  - eapply section_reach; eassumption.
  - apply section_cell; assumption.
Qed.

Lemma hops_ok_head : forall H k d tl tc a rest r, hops_ok H k d tl tc (a :: rest) r ->
  hop_observed H a /\ tl <= h_lock a <= tc.
Proof. intros H k d tl tc a rest r Hok. inversion Hok; subst; split; assumption. Qed.

Lemma hop_depths_cons_inode : forall d a l p cs, h_cont a = CInode p cs ->
  hop_depths d (a :: l) = (a, d) :: hop_depths (d + length p + 1) l.
Proof. intros d a l p cs E. cbn [hop_depths]. rewrite E. reflexivity. Qed.

Lemma hops_ok_good : forall H k, disciplined H -> stays_reachable H -> fullpath_stable H ->
  forall d tl tc l r, hops_ok H k d tl tc l r -> d <= length k ->
  match l with a :: _ => reach (H (h_lock a)) (h_node a) (firstn d k) | [] => True end ->
  forall b db, In (b, db) (hop_depths d l) -> hop_good H k b db /\ db <= length k /\ tl <= h_lock b.
Proof.
  intros H k Hd Hs Hfp d tl tc l r Hok.
  induction Hok as [d tl tc a r Ho Hin Hst | d tl tc a b rest p cs r Ho Hin Hk Hp Hn Hok IH];
    intros Hdk Hr x dx HIn.
  - cbn in HIn. destruct HIn as [E|[]]. injection E as <- <-.
    split; [|split; [exact Hdk | lia]]. apply hop_good_intro; assumption.
  - rewrite (hop_depths_cons_inode _ _ _ _ _ Hk) in HIn.
    pose proof (hop_good_intro H k a d Hd Hs Hfp Ho Hr) as Ga.
    destruct HIn as [E|HIn].
    + injection E as <- <-. split; [exact Ga | split; [exact Hdk | lia]].
    + destruct (hops_ok_head _ _ _ _ _ _ _ _ Hok) as [Hob Hinb].
      unfold next_child in Hn. destruct (nth_error k (d + length p)) as [byte|] eqn:Hnth; [|discriminate].
      destruct (path_extend d k p byte Hp Hnth) as [Epath Elen].
      destruct (Ga (h_lock b) Hinb) as (Rb & _ & (cb & Hcb & _ & Hkb)).
      assert (Rb' : reach (H (h_lock b)) (h_node a) (firstn d k)).
      { apply Rb. right. eauto. }
      rewrite Hk in Hkb.
      assert (Rchild : reach (H (h_lock b)) (h_node b) (firstn (d + length p + 1) k)).
      { rewrite <- Epath. eapply reach_child; eassumption. }
      destruct (IH Elen Rchild x dx HIn) as (G & L1 & L2).
      split; [exact G | split; [exact L1 | lia]].
Qed.

Lemma hops_ok_last : forall H k d tl tc l r, hops_ok H k d tl tc l r ->
  exists a da, In (a, da) (hop_depths d l) /\ In a l /\ stops k da (h_cont a) r /\ h_lock a <= h_check a.
Proof.
  intros H k d tl tc l r Hok.
  induction Hok as [d tl tc a r Ho Hin Hst | d tl tc a b rest p cs r Ho Hin Hk Hp Hn Hok IH].
  - exists a, d. destruct Ho as (Hle & _). cbn. auto.
  - destruct IH as (x & dx & I1 & I2 & St & Le). exists x, dx.
    rewrite (hop_depths_cons_inode _ _ _ _ _ Hk). cbn [In]. auto.
Qed.

Lemma run_hops_good : forall H k rn r,
  disciplined H -> stays_reachable H -> fullpath_stable H -> valid_run H k rn r ->
  forall a d, In (a, d) (hop_depths 0 (r_hops rn)) ->
    hop_good H k a d /\ d <= length k /\ r_lock rn <= h_lock a.
Proof.
  intros H k rn r Hd Hs Hfp (Hle & Hfree & W1 & W2 & Hroot & M) a d HIn.
  destruct (r_ptr rn) as [n|] eqn:Hptr.
  - destruct M as (a0 & rest & Eh & En & Hok). rewrite Eh in HIn.
    destruct (hops_ok_head _ _ _ _ _ _ _ _ Hok) as [_ Hin0].
    eapply hops_ok_good; try eassumption; [lia|].
    cbn [firstn]. apply reach_root.
    rewrite (root_section H (r_lock rn) (r_check rn) Hd Hle); [congruence | congruence | rewrite W1; exact Hfree | exact Hin0].
  - destruct M as [Eh _]. rewrite Eh in HIn. cbn in HIn. contradiction.
Qed.

Theorem hops_on_path : forall H k rn r,
  disciplined H -> stays_reachable H -> fullpath_stable H -> valid_run H k rn r ->
  forall a d, In (a, d) (hop_depths 0 (r_hops rn)) ->
  forall t, h_lock a <= t <= h_check a ->
    ((t = h_lock a \/ exists p cs, h_cont a = CInode p cs) -> reach (H t) (h_node a) (firstn d k)) /\
    (exists pth, reach (H t) (h_node a) pth) /\
    exists c, hp (H t) (h_node a) = Some c /\ word c = h_word a /\ cont c = h_cont a.
Proof.
  intros H k rn r Hd Hs Hfp Hv a d HIn. exact (proj1 (run_hops_good H k rn r Hd Hs Hfp Hv a d HIn)).
Qed.


Lemma fold_max_ge : forall (l : list hop) m,
  m <= fold_left (fun m a => Nat.max m (h_check a)) l m /\
  forall a, In a l -> h_check a <= fold_left (fun m a => Nat.max m (h_check a)) l m.
Proof.
  induction l as [|x l IH]; intros m; cbn [fold_left].
  - split; [lia | intros a []].
  - destruct (IH (Nat.max m (h_check x))) as [I1 I2]. split; [lia|].
    intros a [<- | Ha]; [lia | apply I2; exact Ha].
Qed.

Lemma stops_lookup_rel : forall (h : nid -> option cell) k n d c r,
  h n = Some c -> stops k d (cont c) r -> lookup_rel h k n d r.
Proof.
  intros h k n d c r Hc Hst. remember (cont c) as ct eqn:Hk. symmetry in Hk.
  destruct Hst as [v | k' v Hne | p cs Hnp | p cs Hp Hn].
  - eapply lr_leaf_hit; eassumption.
  - eapply lr_leaf_miss; eassumption.
  - eapply lr_prefix_miss; eassumption.
  - eapply lr_no_child; eassumption.
Qed.

Theorem reader_linearizable : forall H k rn r,
  disciplined H -> stays_reachable H -> fullpath_stable H -> valid_run H k rn r ->
  exists T, r_lock rn <= T <= last_moment rn /\ lookup (H T) k r.
Proof.
  intros H k rn r Hd Hs Hfp Hv.
  pose proof (run_hops_good H k rn r Hd Hs Hfp Hv) as G.
  destruct Hv as (Hle & Hfree & W1 & W2 & Hroot & M).
  destruct (r_ptr rn) as [n|] eqn:Hptr.
  - destruct M as (a0 & rest & Eh & En & Hok).
    destruct (hops_ok_last _ _ _ _ _ _ _ Hok) as (x & dx & I1 & I2 & St & Le).
    rewrite <- Eh in I1, I2.
    destruct (G x dx I1) as (Gx & Ldx & Lx).
    exists (h_lock x). split.
    + split; [exact Lx|]. unfold last_moment.
      destruct (fold_max_ge (r_hops rn) (r_check rn)) as [_ F]. specialize (F x I2). lia.
    + destruct (Gx (h_lock x)) as (R & _ & (c & Hc & _ & Hk)); [lia|].
      apply (reach_lookup (H (h_lock x)) k (h_node x) (firstn dx k)) with (d := dx).
      * apply R. left. reflexivity.
      * reflexivity.
      * exact Ldx.
      * eapply stops_lookup_rel; [exact Hc | rewrite Hk; exact St].
  - destruct M as [Eh ->]. exists (r_lock rn). split.
    + unfold last_moment. rewrite Eh. cbn. lia.
    + unfold lookup. rewrite Hroot. reflexivity.
Qed.

Print Assumptions lookup_deterministic.
Print Assumptions hops_on_path.
Print Assumptions reader_linearizable.
