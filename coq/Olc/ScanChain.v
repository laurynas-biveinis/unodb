(** C09: what a scan delivers when each of its steps is a query on an index
    that changes while the scan runs, for any strictly and totally ordered key
    type, a relation "key k holds value v at moment T", and INTERVAL queries:
    the delivered entry holds at some moment of the step, every key of the
    asked set before it is absent at some moment of the step.  Second half:
    the atomic scans of Olc/ScanSpec.v (one moment per step) as an instance. *)
From Coq Require Import List ZArith Lia Sorted.
From Unodb Require Import Olc.ScanSpec.
Import ListNotations.

Lemma last_cons_default : forall (A : Type) (l : list A) (a d : A), last (a :: l) d = last l a.
Proof.
  intros A l. induction l as [|b l IH]; intros a d; [reflexivity|].
  change (last (a :: b :: l) d) with (last (b :: l) d). rewrite (IH b d), (IH b a). reflexivity.
Qed.

Section Chain.
Context {K V : Type} {lt : K -> K -> Prop} {holds : nat -> K -> V -> Prop}.
Hypothesis lt_irrefl : forall a, ~ lt a a.
Hypothesis lt_trans : forall a b c, lt a b -> lt b c -> lt a c.
Hypothesis lt_tricho : forall a b, lt a b \/ a = b \/ lt b a.

Definition absent (t1 t2 : nat) (x : K) : Prop :=
  exists T, (t1 <= T <= t2)%nat /\ ~ exists v, holds T x v.

(** A: the keys asked for *)
Definition cquery (t1 t2 : nat) (A : K -> Prop) (r : option (K * V)) : Prop :=
  match r with
  | Some (k, v) => A k /\ (exists T, (t1 <= T <= t2)%nat /\ holds T k v) /\
                   forall x, A x -> lt x k -> absent t1 t2 x
  | None => forall x, A x -> absent t1 t2 x
  end.

(** deliveries: (first moment, last moment, key, value) *)
Inductive qchain : nat -> (K -> Prop) -> list (nat * nat * K * V) -> Prop :=
| qc_nil : forall t A, qchain t A []
| qc_cons : forall t A t1 t2 k v ds,
    (t <= t1 <= t2)%nat -> cquery t1 t2 A (Some (k, v)) -> qchain t2 (lt k) ds ->
    qchain t A ((t1, t2, k, v) :: ds).

Definition ckeys (ds : list (nat * nat * K * V)) : list K := map (fun d => snd (fst d)) ds.
Definition clast_moment (t : nat) (ds : list (nat * nat * K * V)) : nat :=
  last (map (fun d => snd (fst (fst d))) ds) t.
Fixpoint cfinal (A : K -> Prop) (ds : list (nat * nat * K * V)) : K -> Prop :=
  match ds with [] => A | d :: ds' => cfinal (lt (snd (fst d))) ds' end.

(** the scan ran to completion: a last query found nothing *)
Definition cended (t : nat) (A : K -> Prop) (ds : list (nat * nat * K * V)) (e : option nat) : Prop :=
  forall te, e = Some te -> (clast_moment t ds <= te)%nat /\ cquery te te (cfinal A ds) None.

Lemma clast_moment_cons : forall t t1 t2 k v ds, clast_moment t ((t1, t2, k, v) :: ds) = clast_moment t2 ds.
Proof. intros. unfold clast_moment. cbn [map fst snd]. apply last_cons_default. Qed.

Lemma cfinal_snoc : forall A ds d, cfinal A (ds ++ [d]) = lt (snd (fst d)).
Proof. intros A ds d. revert A. induction ds as [|d0 ds IH]; intros A; [reflexivity | apply IH]. Qed.

Lemma qchain_last_moment_ge : forall {t A ds}, qchain t A ds -> (t <= clast_moment t ds)%nat.
Proof.
  intros t A ds S. induction S as [t A | t A t1 t2 k v ds Ht Q S IH].
  - apply le_n.
  - rewrite clast_moment_cons. lia.
Qed.

Theorem qchain_ordered_bounded : forall {t A ds}, qchain t A ds -> (forall a b, A a -> lt a b -> A b) ->
  StronglySorted lt (ckeys ds) /\ Forall A (ckeys ds).
Proof.
  intros t A ds S. induction S as [t A | t A t1 t2 k v ds Ht (Ak & _) S IH]; intros Up.
  - split; constructor.
  - destruct (IH (lt_trans k)) as [IHs IHb]. split.
    + constructor; assumption.
    + constructor; [exact Ak|]. eapply Forall_impl; [|exact IHb]. intros x Hx. exact (Up _ _ Ak Hx).
Qed.

Theorem qchain_values_held : forall {t A ds}, qchain t A ds ->
  Forall (fun d : nat * nat * K * V => let '(t1, t2, k, v) := d in
            (t <= t1)%nat /\ exists T, (t1 <= T <= t2)%nat /\ holds T k v) ds.
Proof.
  intros t A ds S. induction S as [t A | t A t1 t2 k v ds Ht (_ & E & _) S IH]; constructor.
  - split; [lia | exact E].
  - eapply Forall_impl; [|exact IH]. intros [[[a b] c] d] [L E']. split; [lia | exact E'].
Qed.

Theorem qchain_no_phantom : forall {t A ds} k, qchain t A ds ->
  (forall t', ~ exists v, holds t' k v) -> ~ In k (ckeys ds).
Proof.
  intros t A ds k S Habs Hin.
  pose proof (qchain_values_held S) as HV. rewrite Forall_forall in HV.
  apply in_map_iff in Hin. destruct Hin as [[[[t1 t2] k0] v] [Hk Hd]].
  cbn in Hk. subst k0. destruct (HV _ Hd) as [_ (T & _ & E)]. apply (Habs T). exists v. exact E.
Qed.

(** completeness, for keys that are there at every moment of the scan *)
Theorem qchain_complete_prefix : forall {t A ds} k, qchain t A ds -> A k -> ~ cfinal A ds k ->
  (forall t', (t <= t' <= clast_moment t ds)%nat -> exists v, holds t' k v) -> In k (ckeys ds).
Proof.
  intros t A ds k S.
  induction S as [t A | t A t1 t2 k1 v ds Ht (_ & _ & Gap) S IH]; intros Ak Hfb Hst.
  - contradiction.
  - rewrite clast_moment_cons in Hst. pose proof (qchain_last_moment_ge S) as Hmono.
    destruct (lt_tricho k k1) as [Hlt | [Heq | Hgt]].
    + exfalso. destruct (Gap k Ak Hlt) as (T & HT & Habs). apply Habs. apply Hst. lia.
    + left. symmetry. exact Heq.
    + right. apply IH; [exact Hgt | exact Hfb |]. intros t' Ht'. apply Hst. lia.
Qed.

Lemma cfinal_decidable : forall A ds, (forall x, A x \/ ~ A x) -> forall x, cfinal A ds x \/ ~ cfinal A ds x.
Proof.
  intros A ds. revert A. induction ds as [|d ds IH]; intros A Dec; [exact Dec|]. apply IH.
  intros x. destruct (lt_tricho (snd (fst d)) x) as [L | [<- | L]]; [left; exact L | right; apply lt_irrefl |].
  right. intros L'. exact (lt_irrefl _ (lt_trans _ _ _ L L')).
Qed.

Theorem qchain_complete : forall {t A ds} te1 te2 k, qchain t A ds -> (forall x, A x \/ ~ A x) ->
  (clast_moment t ds <= te1 <= te2)%nat -> cquery te1 te2 (cfinal A ds) None ->
  A k -> (forall t', (t <= t' <= te2)%nat -> exists v, holds t' k v) -> In k (ckeys ds).
Proof.
  intros t A ds te1 te2 k S Dec Hte Hex Ak Hst.
  pose proof (qchain_last_moment_ge S) as Hmono.
  destruct (cfinal_decidable A ds Dec k) as [Hb | Hnb].
  - exfalso. destruct (Hex k Hb) as (T & HT & Habs). apply Habs. apply Hst. lia.
  - apply (qchain_complete_prefix k S Ak Hnb). intros t' Ht'. apply Hst. lia.
Qed.

(** range scan: the caller stops at [stop], whose key is not before [to] *)
Theorem qchain_range_complete : forall {t A ds} stop to k, qchain t A (ds ++ [stop]) ->
  ~ lt (snd (fst stop)) to -> A k -> lt k to ->
  (forall t', (t <= t' <= clast_moment t (ds ++ [stop]))%nat -> exists v, holds t' k v) -> In k (ckeys ds).
Proof.
  intros t A ds stop to k S Hstop Ak Hto Hst.
  assert (Hin : In k (ckeys (ds ++ [stop]))).
  { apply (qchain_complete_prefix k S Ak); [|exact Hst].
    rewrite cfinal_snoc. intros L. exact (Hstop (lt_trans _ _ _ L Hto)). }
  unfold ckeys in Hin |- *. rewrite map_app in Hin. apply in_app_or in Hin.
  destruct Hin as [Hin | [E | []]]; [exact Hin|]. cbn in E. subst k. contradiction.
Qed.

Theorem qchain_scan : forall {t A ds e}, qchain t A ds -> cended t A ds e ->
  (forall a b, A a -> lt a b -> A b) -> (forall x, A x \/ ~ A x) ->
  StronglySorted lt (ckeys ds) /\ Forall A (ckeys ds) /\
  Forall (fun d : nat * nat * K * V => let '(t1, t2, k, v) := d in
            (t <= t1)%nat /\ exists T, (t1 <= T <= t2)%nat /\ holds T k v) ds /\
  (forall k, (forall t', ~ exists v, holds t' k v) -> ~ In k (ckeys ds)) /\
  (forall k, A k -> ~ cfinal A ds k ->
     (forall t', (t <= t' <= clast_moment t ds)%nat -> exists v, holds t' k v) -> In k (ckeys ds)) /\
  (forall te k, e = Some te -> A k ->
     (forall t', (t <= t' <= te)%nat -> exists v, holds t' k v) -> In k (ckeys ds)).
Proof.
  intros t A ds e S En Up Dec. destruct (qchain_ordered_bounded S Up) as [O B].
  split; [exact O|]. split; [exact B|]. split; [exact (qchain_values_held S)|].
  split; [intros k; exact (qchain_no_phantom k S)|]. split.
  - intros k. exact (qchain_complete_prefix k S).
  - intros te k Ee Ak Hst. destruct (En te Ee) as [Hl Hx].
    apply (qchain_complete te te k S Dec); [lia | exact Hx | exact Ak | exact Hst].
Qed.

End Chain.

Arguments absent {K V} holds.
Arguments cquery {K V} lt holds.
Arguments qchain {K V} lt holds.
Arguments cfinal {K V} lt.
Arguments cended {K V} lt holds.

(** The atomic scans of Olc/ScanSpec.v: each step lasts one moment; the bound
    "k + 1" there is the set of keys greater than k. *)

Local Open Scope Z_scope.

Definition zheld (H : history) (T : nat) (k v : Z) : Prop := H T k = Some v.
Definition zstep (d : nat * Z * Z) : nat * nat * Z * Z := let '(t1, k, v) := d in (t1, t1, k, v).

Lemma zheld_none : forall H T k, (~ exists v, zheld H T k v) <-> H T k = None.
Proof.
  intros H T k. unfold zheld. destruct (H T k) as [v|]; split; intros E; try reflexivity; try discriminate.
  - exfalso. apply E. exists v. reflexivity.
  - intros [v Ev]. discriminate.
Qed.

Lemma scan_fwd_qchain : forall H t lo ds, scan_fwd H t lo ds ->
  forall A : Z -> Prop, (forall x, A x <-> lo <= x) -> qchain Z.lt (zheld H) t A (map zstep ds).
Proof.
  intros H t lo ds S. induction S as [t lo | t lo t1 k v ds Ht (Hlo & _ & Hleast) Hv S IH]; intros A HA.
  - constructor.
  - cbn. apply qc_cons; [lia | | apply IH; intros x; lia].
    split; [apply HA; exact Hlo|]. split; [exists t1; split; [lia | exact Hv]|].
    intros x Ax Lx. exists t1. split; [lia|]. apply zheld_none. apply Hleast; [apply HA; exact Ax | exact Lx].
Qed.

Lemma zkeys : forall ds, ckeys (map zstep ds) = keys_of ds.
Proof. intros ds. unfold ckeys, keys_of. rewrite map_map. apply map_ext. intros [[t1 k] v]. reflexivity. Qed.

Lemma zlast_moment : forall t ds, clast_moment t (map zstep ds) = last_moment t ds.
Proof. intros t ds. unfold clast_moment, last_moment. rewrite map_map. f_equal. apply map_ext. intros [[t1 k] v]. reflexivity. Qed.

Lemma zfinal : forall ds (A : Z -> Prop) lo, (forall x, A x <-> lo <= x) ->
  forall x, cfinal Z.lt A (map zstep ds) x <-> final_bound lo ds <= x.
Proof.
  induction ds as [|[[t1 k] v] ds IH]; intros A lo HA x; [exact (HA x)|].
  unfold final_bound. cbn [map fst snd]. rewrite last_cons_default. apply IH. intros y. cbn. lia.
Qed.

Section Scan.
Variables (H : history) (t : nat) (lo : Z) (ds : list (nat * Z * Z)).
Hypothesis S : scan_fwd H t lo ds.

Let A (x : Z) : Prop := lo <= x.
Let C : qchain Z.lt (zheld H) t A (map zstep ds) := scan_fwd_qchain H t lo ds S A (fun x => iff_refl _).

Theorem scan_ordered_bounded : StronglySorted Z.lt (keys_of ds) /\ Forall (fun k => lo <= k) (keys_of ds).
Proof.
  rewrite <- zkeys. apply (qchain_ordered_bounded Z.lt_trans C). unfold A. intros a b. lia.
Qed.

Theorem scan_values_held :
  Forall (fun d => (t <= fst (fst d))%nat /\ H (fst (fst d)) (snd (fst d)) = Some (snd d)) ds.
Proof.
  pose proof (qchain_values_held C) as V. rewrite Forall_map in V.
  eapply Forall_impl; [|exact V]. intros [[t1 k] v] [L (T & HT & E)]. cbn in *.
  assert (T = t1) as -> by lia. split; assumption.
Qed.

Theorem scan_no_phantom : forall k, (forall t', H t' k = None) -> ~ In k (keys_of ds).
Proof.
  intros k Habs. rewrite <- zkeys. apply (qchain_no_phantom k C).
  intros t'. apply zheld_none. apply Habs.
Qed.

Lemma zstable : forall k te, (forall t', (t <= t' <= te)%nat -> H t' k <> None) ->
  forall t', (t <= t' <= te)%nat -> exists v, zheld H t' k v.
Proof. intros k te Hst t' Ht'. specialize (Hst t' Ht'). unfold zheld. destruct (H t' k) as [v|]; [exists v; reflexivity | congruence]. Qed.

Theorem scan_complete_prefix : forall k, lo <= k -> k < final_bound lo ds ->
  (forall t', (t <= t' <= last_moment t ds)%nat -> H t' k <> None) -> In k (keys_of ds).
Proof.
  intros k Hlo Hfb Hst. rewrite <- zkeys. apply (qchain_complete_prefix Z.lt_total k C Hlo).
  - rewrite (zfinal ds A lo (fun x => iff_refl _)). lia.
  - rewrite zlast_moment. apply zstable. exact Hst.
Qed.

Theorem scan_complete : forall te k, (last_moment t ds <= te)%nat -> exhausted H te (final_bound lo ds) ->
  lo <= k -> (forall t', (t <= t' <= te)%nat -> H t' k <> None) -> In k (keys_of ds).
Proof.
  intros te k Hte Hex Hlo Hst. rewrite <- zkeys.
  apply (qchain_complete Z.lt_irrefl Z.lt_trans Z.lt_total te te k C); try assumption.
  - intros x. unfold A. lia.
  - rewrite zlast_moment. lia.
  - intros x Ax. exists te. split; [lia|]. apply zheld_none. apply Hex. apply (zfinal ds A lo (fun y => iff_refl _)). exact Ax.
  - apply zstable. exact Hst.
Qed.

End Scan.
