(** The oracle of the writer-quiescent snapshot check (tools/p_olc.py, snapshot_check): the expected shape of a
    snapshot is computed by running the sequential model on SOME history that leaves exactly the snapshot's entries.
    That this is THE shape of every well-formed tree with those entries, whatever history - sequential or
    concurrent - produced it, is shape uniqueness composed with the invariant of the model's runs. *)
From Coq Require Import List ZArith Lia.
From Unodb Require Import Art.ArtModel Art.ArtSpec Art.ArtInv Art.ArtProofs Art.ArtScanSpec
  Art.ArtShapeProofs.
Import ListNotations.
Local Open Scope Z_scope.

Lemma oracle_run_WF : forall L sz ops t', (1 <= L <= 8)%nat -> Forall (op_ok L) ops ->
  root (run_state sz db0 ops) = Some t' -> WF L t' [].
Proof.
  intros L sz ops t' HL Hops Hroot.
  destruct (run_state_invariant L sz ops HL Hops) as (Hwf & _).
  unfold db_WF in Hwf. rewrite Hroot in Hwf. exact Hwf.
Qed.

Theorem snapshot_oracle_shape : forall L sz ops t t', (1 <= L <= 8)%nat -> Forall (op_ok L) ops ->
  root (run_state sz db0 ops) = Some t' ->
  WF L t [] -> kvs (leaves t) = kvs (leaves t') -> erase t = erase t'.
Proof.
  intros L sz ops t t' HL Hops Hroot Hwf Hkvs.
  apply (shape_unique L t t' [] HL Hwf (oracle_run_WF L sz ops t' HL Hops Hroot) Hkvs).
Qed.

(** two histories with the same final entries: same shape (the form in which the check uses it: one history is
    whatever the concurrent writers did - assumed to leave a well-formed tree -, the other the oracle's inserts) *)
Theorem snapshot_oracle_two_runs : forall L sz1 sz2 ops1 ops2 t1 t2, (1 <= L <= 8)%nat ->
  Forall (op_ok L) ops1 -> Forall (op_ok L) ops2 ->
  root (run_state sz1 db0 ops1) = Some t1 -> root (run_state sz2 db0 ops2) = Some t2 ->
  kvs (leaves t1) = kvs (leaves t2) -> erase t1 = erase t2.
Proof.
  intros L sz1 sz2 ops1 ops2 t1 t2 HL H1 H2 R1 R2 HK.
  apply (snapshot_oracle_shape L sz2 ops2 t1 t2 HL H2 R2 (oracle_run_WF L sz1 ops1 t1 HL H1 R1) HK).
Qed.

(** the check is not vacuous the other way round: a tree with the right entries and results but a node of the wrong
    class (what a skipped shrink leaves behind) is told apart by [erase] *)
Definition k8 (a b : Z) : list Z := [0;0;0;0;0;0;a;b].
Definition ex_sz : sizes := {| sz_leaf := 11; sz4 := 48; sz16 := 160; sz48 := 672; sz256 := 2064 |}.
Definition ex_oracle : list op := [OInsert (k8 0 2) [2]; OInsert (k8 0 3) [3]; OInsert (k8 0 4) [4]; OInsert (k8 0 5) [5]].
Definition ex_history : list op :=
  [OInsert (k8 0 5) [9]; OInsert (k8 0 1) [1]; OInsert (k8 0 3) [3]; OInsert (k8 0 2) [2]; OInsert (k8 0 4) [4];
   ORemove (k8 0 5); OInsert (k8 0 5) [5]; ORemove (k8 0 1)].
Definition ex_unshrunk : node :=
  Inode C16 [0;0;0;0;0;0;0] [(2, Leaf 0 (k8 0 2) [2]); (3, Leaf 0 (k8 0 3) [3]); (4, Leaf 0 (k8 0 4) [4]); (5, Leaf 0 (k8 0 5) [5])].

Lemma ex_ops_ok : Forall (op_ok 8) ex_oracle /\ Forall (op_ok 8) ex_history.
Proof.
  split; repeat constructor; unfold is_byte_z; lia.
Qed.

Lemma ex_roots : exists t1 t2, root (run_state ex_sz db0 ex_history) = Some t1 /\ root (run_state ex_sz db0 ex_oracle) = Some t2 /\
  kvs (leaves t1) = kvs (leaves t2) /\ t1 <> t2 /\ erase t1 = erase t2 /\
  kvs (leaves ex_unshrunk) = kvs (leaves t2) /\ erase ex_unshrunk <> erase t2.
Proof.
  destruct (root (run_state ex_sz db0 ex_history)) as [t1|] eqn:E1; [|vm_compute in E1; discriminate].
  destruct (root (run_state ex_sz db0 ex_oracle)) as [t2|] eqn:E2; [|vm_compute in E2; discriminate].
  exists t1, t2. vm_compute in E1. vm_compute in E2.
  injection E1 as <-. injection E2 as <-.
  repeat split; try (vm_compute; reflexivity); vm_compute; intro H; discriminate H.
Qed.
