(** C04 (main clause): proofs for Olc/UafModel.v.

    - Every node a trace touches was in the tree at some moment of the period
      (touched_was_reachable, by induction along the trace): a pointer read
      from the root pointer is in the tree at the read moment; a child read
      out of Y was a child of Y when Y was last in the tree, because the
      children of an unlinked node are frozen (frozen_back).
    - A node that was in the tree at a moment of the period is retired only
      later; freeing it then needs a quiescent state of the followed thread
      after the retire, and the thread passes none before e
      (protected_until_quiescent, no_use_after_free).
    - The two hypotheses on the writers hold of every generated history
      (generated_frozen, generated_retire_unlinked): a commit changes the
      children of a node only with a bump of its word to a free one, and a
      node that has not been obsolete since it was in the tree is still in it.
    - [ux_], [gen_]: facts of the concrete histories of Olc/UafModel.v and of
      Olc/WriteExample.v that Properties_C04b.v uses to show the hypotheses
      satisfiable and each of them needed. *)
From Coq Require Import List ZArith Bool Arith Lia.
From Unodb Require Import Lock.LockModel Olc.ReadModel Olc.ReadProofs Olc.ExampleKit Olc.WriteModel Olc.WriteShapes
  Olc.WriteProofs Olc.WriteExample Olc.UafModel.
Import ListNotations.
Local Open Scope nat_scope.

(** a child pointer read out of a node that was in the tree points to a node
    that was in the tree no earlier than the node itself *)
Lemma child_of_linked : forall g Y b c, linked g Y -> child_of g Y b c -> linked g c.
Proof.
  intros g Y b c [pth Hr] (cY & p & cs & Hc & Hk & Hf).
  exists (pth ++ p ++ [b]). eapply reach_child; eassumption.
Qed.

Lemma frozen_back : forall H, obsolete_children_frozen H ->
  forall Y b c y k, linked (H y) Y -> child_of (H (y + k)) Y b c ->
    exists z, y <= z <= y + k /\ linked (H z) c.
Proof.
  intros H F Y b c y. induction k as [|k IH]; intros HY Hc.
  - rewrite Nat.add_0_r in *. exists y. split; [lia|]. eapply child_of_linked; eassumption.
  - replace (y + S k) with (S (y + k)) in * by lia.
    assert (Hyk : y <= y + k) by lia.
    destruct (F Y y (y + k) b c Hyk HY Hc) as [HL | Hc'].
    + exists (S (y + k)). split; [lia|]. eapply child_of_linked; eassumption.
    + destruct (IH HY Hc') as (z & Hz & Hl). exists z. split; [lia | exact Hl].
Qed.

Theorem touched_was_reachable : forall H s tr, obsolete_children_frozen H -> trace_ok H s tr ->
  forall d, In d tr -> exists y, s <= y <= d_at d /\ linked (H y) (d_node d).
Proof.
  intros H s tr F Hok. induction Hok as [|tr d Hok IH Hm Hsh Hto]; intros d0 Hin; [contradiction|].
  apply in_app_or in Hin. destruct Hin as [Hin | [<- | []]]; [apply IH; exact Hin|].
  destruct (d_src d) as [m | Y b m] eqn:Es; cbn [src_moment src_shows src_touched] in *.
  - exists m. split; [lia|]. exists []. apply reach_root. exact Hsh.
  - destruct Hto as (e & He & EY & Hem). destruct (IH e He) as (y & Hy & HlY). rewrite EY in HlY.
    assert (Em : m = y + (m - y)) by lia. rewrite Em in Hsh.
    destruct (frozen_back H F Y b (d_node d) y (m - y) HlY Hsh) as (z & Hz & Hl).
    exists z. split; [lia | exact Hl].
Qed.

Theorem reachable_not_retired : forall H R, retire_unlinked H R ->
  forall t n, linked (H t) n -> forall r th, r <= t -> ~ rc_retire R r th n.
Proof. intros H R RU t n Hl r th Hle Hr. exact (RU r th n t Hr Hle Hl). Qed.

Theorem reachable_never_freed : forall H R, retire_unlinked H R -> freed_via_retire H R ->
  forall t n, linked (H t) n -> ~ rc_freed R t n.
Proof.
  intros H R RU FV t n Hl Hf. destruct (FV t n t Hf (le_n t) Hl) as (r & th & Hle & Hr).
  exact (RU r th n t Hr Hle Hl).
Qed.

(** a touched node is not with the allocator at any later moment u of the
    period either, unless the thread has itself retired it by then *)
Theorem protected_until_quiescent : forall H R th s e tr,
  writers_discipline H R -> qsbr_safe R -> freed_via_retire H R ->
  in_period R th s e -> trace_ok H s tr ->
  forall d u, In d tr -> d_at d <= u <= e ->
    (forall r, rc_retire R r th (d_node d) -> u < r) -> ~ rc_freed R u (d_node d).
Proof.
  intros H R th s e tr [RU F] Q FV P Hok d u Hin Hu Own Hf.
  destruct (touched_was_reachable H s tr F Hok d Hin) as (y & Hy & Hl).
  assert (Hyu : y <= u) by lia.
  destruct (FV u (d_node d) y Hf Hyu Hl) as (r & t & Hru & Hr).
  assert (Hyr : y < r).
  { destruct (le_lt_dec r y) as [Hle|Hlt]; [|exact Hlt]. exfalso. exact (RU r t _ y Hr Hle Hl). }
  destruct (Nat.eq_dec th t) as [<- | Hne].
  - pose proof (Own r Hr) as Hur. lia.
  - refine (Q r t (d_node d) th u Hr Hne _ Hru _ Hf).
    + apply (P r). lia.
    + intros q Hq. apply (P q); lia.
Qed.

Theorem no_use_after_free : forall H R th s e tr,
  writers_discipline H R -> qsbr_safe R -> freed_via_retire H R ->
  in_period R th s e -> trace_ok H s tr -> own_retire_later R th tr ->
  forall d, In d tr -> d_at d <= e -> ~ rc_freed R (d_at d) (d_node d).
Proof.
  intros H R th s e tr W Q FV P Hok Own d Hin Hle.
  eapply protected_until_quiescent; eauto.
  intros r Hr. exact (proj1 (Own d r Hin) Hr).
Qed.

Lemma trace_ok_app_inv : forall H s tr d, trace_ok H s (tr ++ [d]) ->
  trace_ok H s tr /\ s <= src_moment (d_src d) <= d_at d /\ src_shows H (d_src d) (d_node d) /\ src_touched tr (d_src d).
Proof.
  intros H s tr d Hok. inversion Hok as [E | tr' d' Hok' Hm Hsh Hto E].
  - destruct tr; discriminate.
  - apply app_inj_tail in E. destruct E as [-> ->]. auto.
Qed.

Lemma trace_ok_split : forall H s tr2 tr1, trace_ok H s (tr1 ++ tr2) -> trace_ok H s tr1.
Proof.
  intros H s tr2. induction tr2 as [|d tr2 IH] using rev_ind; intros tr1 Hok.
  - rewrite app_nil_r in Hok. exact Hok.
  - rewrite app_assoc in Hok. apply trace_ok_app_inv in Hok. apply IH. apply Hok.
Qed.

(** [trace_ok] front to back, for concrete traces *)
Fixpoint trace_from (H : history) (s : nat) (pre tr : list deref) : Prop :=
  match tr with
  | [] => True
  | d :: tr' =>
      s <= src_moment (d_src d) <= d_at d /\ src_shows H (d_src d) (d_node d) /\ src_touched pre (d_src d) /\
      trace_from H s (pre ++ [d]) tr'
  end.

Lemma trace_from_ok : forall H s tr pre, trace_ok H s pre -> trace_from H s pre tr -> trace_ok H s (pre ++ tr).
Proof.
  intros H s. induction tr as [|d tr IH]; intros pre Hp Hf; [now rewrite app_nil_r|].
  destruct Hf as (A & B & C & Hf). change (d :: tr) with ([d] ++ tr). rewrite app_assoc.
  apply IH; [now apply tr_snoc | exact Hf].
Qed.

(** the read of the child slot out of Y (at the source moment) is itself an
    access to memory that is not with the allocator *)
Corollary slot_read_not_freed : forall H R th s e tr,
  writers_discipline H R -> qsbr_safe R -> freed_via_retire H R ->
  in_period R th s e -> trace_ok H s tr -> own_retire_later R th tr ->
  forall d Y b m, In d tr -> d_src d = FromChild Y b m -> d_at d <= e -> ~ rc_freed R m Y.
Proof.
  intros H R th s e tr W Q FV P Hok Own d Y b m Hin Es Hle.
  pose proof Hin as Hin0.
  apply in_split in Hin. destruct Hin as (l1 & l2 & ->).
  assert (Hok1 : trace_ok H s (l1 ++ [d])).
  { apply (trace_ok_split H s l2). rewrite <- app_assoc. exact Hok. }
  destruct (trace_ok_app_inv H s l1 d Hok1) as (_ & Hm & _ & Hto).
  rewrite Es in Hm, Hto. cbn [src_moment src_touched] in Hm, Hto.
  destruct Hto as (e0 & He0 & EY & Hem). rewrite <- EY.
  eapply (protected_until_quiescent H R th s e (l1 ++ d :: l2)); eauto.
  - apply in_or_app. left. exact He0.
  - lia.
  - intros r Hr. rewrite EY in Hr. exact (proj2 (Own d r Hin0) Y b m Es Hr).
Qed.

Lemma upd_cases : forall (h : heap) X cX n c', upd h X cX n = Some c' ->
  (n = X /\ c' = cX) \/ (n <> X /\ h n = Some c').
Proof.
  intros h X cX n c' E. unfold upd in E. destruct (Nat.eqb_spec n X) as [->|Hne].
  - left. split; [reflexivity | congruence].
  - right. split; assumption.
Qed.

Definition cont_step (g g' : gstate) : Prop :=
  forall n c c', hp g n = Some c -> hp g' n = Some c' ->
    c' = c \/ cont c' = cont c \/ word c' = bump (word c).

Ltac upd_split E :=
  match type of E with
  | upd _ _ _ _ = Some _ =>
      apply upd_cases in E; destruct E as [[-> ->] | [? E]]; [| try upd_split E]
  end.

Ltac cont_fin :=
  solve [ congruence | left; congruence
        | right; left; cbn [cont mk]; congruence
        | right; right; cbn [word mk]; congruence ].

Lemma slot_redirect_cont : forall g s h X g',
  slot_redirect g s h X g' ->
  (forall n c c', hp g n = Some c -> h n = Some c' -> c' = c \/ cont c' = cont c \/ word c' = bump (word c)) ->
  cont_step g g'.
Proof.
  intros g [|P bP] h X g' Hs Hh n c c' Hc Hc'; cbn [slot_redirect] in Hs.
  - subst g'. cbn [hp set_root] in Hc'. eapply Hh; eassumption.
  - destruct Hs as (cP & pP & csP & csP' & HcP & HkP & _ & ->). cbn [hp set_hp] in Hc'.
    upd_split Hc'; [cont_fin | eapply Hh; eassumption].
Qed.

Lemma ins_commit_cont : forall k v g g', ins_commit k v g g' -> cont_step g g'.
Proof.
  intros k v g g' [Hc | Hc | Hc | Hc | Hc].
  - destruct Hc as [N d cN p cs b L wl cs' (_ & _ & HcN & _) _ HL _ _ ->].
    intros n c c' Hc Hc'. cbn [hp set_hp] in Hc'. upd_split Hc'; cont_fin.
  - destruct Hc as [L wl _ HL _ ->].
    intros n c c' Hc Hc'. cbn [hp set_root] in Hc'. upd_split Hc'; cont_fin.
  - destruct Hc as [s L0 d cL kL vL X wx px csX bl bk Lk wl h _ _ _ _ _ _ _ _ _ _ HX HLk _ _ _ -> Hs].
    eapply slot_redirect_cont; [exact Hs|].
    intros n c c' Hc Hc'. upd_split Hc'; cont_fin.
  - destruct Hc as [s N d cN p cs b N' wn cs' L wl h (_ & _ & HcN & _) _ HN' HL _ _ _ _ -> Hs].
    eapply slot_redirect_cont; [exact Hs|].
    intros n c c' Hc Hc'. upd_split Hc'; cont_fin.
  - destruct Hc as [s N d cN p1 bn p2 cs bk X wx csX Lk wl h _ _ HcN _ _ _ _ _ HX HLk _ _ _ -> Hs].
    eapply slot_redirect_cont; [exact Hs|].
    intros n c c' Hc Hc'. upd_split Hc'; cont_fin.
Qed.

Lemma rem_commit_cont : forall k g g', rem_commit k g g' -> cont_step g g'.
Proof.
  intros k g g' [Hc | Hc | Hc | Hc].
  - destruct Hc as [N d cN p cs b L cL v cs' (_ & _ & HcN & _) _ HcL _ _ ->].
    intros n c c' Hc Hc'. cbn [hp set_hp] in Hc'. upd_split Hc'; cont_fin.
  - destruct Hc as [L cL v _ HcL _ ->].
    intros n c c' Hc Hc'. cbn [hp set_root] in Hc'. upd_split Hc'; cont_fin.
  - destruct Hc as [s N d cN p cs b N' wn cs' L cL v h (_ & _ & HcN & _) _ HcL _ HN' _ _ -> Hs].
    eapply slot_redirect_cont; [exact Hs|].
    intros n c c' Hc Hc'. upd_split Hc'; cont_fin.
  - destruct Hc as [s N d cN p cs b L cL v bc C cC cC' h (_ & _ & HcN & _) _ _ HcL _ HcC HC' -> Hs].
    eapply slot_redirect_cont; [exact Hs|].
    intros n c c' Hc Hc'.
    destruct HC' as [(kc & vc & _ & ->) | (pc & csC & _ & ->)]; upd_split Hc'; cont_fin.
Qed.

Lemma commit_cont : forall k g g', commit k g g' -> cont_step g g'.
Proof.
  intros k g g' [[v Hc] | Hc]; [eapply ins_commit_cont | eapply rem_commit_cont]; eassumption.
Qed.

Lemma child_of_cont : forall g g' Y b c cY cY', hp g Y = Some cY -> hp g' Y = Some cY' -> cont cY' = cont cY ->
  child_of g' Y b c -> child_of g Y b c.
Proof.
  intros g g' Y b c cY cY' Hc Hc' E (c0 & p & cs & H0 & Hk & Hf).
  rewrite Hc' in H0. injection H0 as <-. exists cY, p, cs. rewrite <- E. auto.
Qed.

Lemma obsolete_later : forall H, generated H -> forall n t t' c c', t <= t' ->
  hp (H t) n = Some c -> w_is_obsolete (word c) = true -> hp (H t') n = Some c' -> word c' = 1%Z.
Proof.
  intros H G n t t' c c' Hle Hc Ho Hc'.
  destruct (past_later H (generated_cell_step H G) n (word c') t t' c Hle Hc) as (c2 & Hc2 & Hp).
  - left. unfold w_is_obsolete in Ho. apply Z.eqb_eq in Ho. exact Ho.
  - rewrite Hc' in Hc2. injection Hc2 as <-. destruct Hp as [E | Hlt]; [exact E | lia].
Qed.

Lemma linked_free : forall H, generated H -> forall t n, linked (H t) n ->
  exists c, hp (H t) n = Some c /\ w_is_free (word c) = true.
Proof. intros H G t n [pth Hr]. exact (wf_alloc _ (generated_WF H G t) n pth Hr). Qed.

Theorem generated_frozen : forall H, generated H -> obsolete_children_frozen H.
Proof.
  intros H G Y y t b c Hyt HlY Hch.
  destruct (proj2 G t) as [E | [k Hcm]]; [right; rewrite <- E; exact Hch|].
  destruct (linked_free H G y Y HlY) as (cy & Hcy & Hfy).
  destruct (alloc_later H (generated_cell_step H G) Y y t cy Hyt Hcy) as (c0 & Hc0).
  pose proof Hch as (cY & p & cs & HcY & HkY & HfY).
  destruct (generated_cell_step H G t Y c0 Hc0) as (c1 & Hc1 & Hcell).
  rewrite HcY in Hc1. injection Hc1 as <-.
  destruct Hcell as [-> | (Hf0 & _)].
  { right. eapply child_of_cont; [exact Hc0 | exact HcY | reflexivity | exact Hch]. }
  destruct (commit_cont k _ _ Hcm Y c0 cY Hc0 HcY) as [-> | [Ek | Ew]].
  - right. eapply child_of_cont; [exact Hc0 | exact HcY | reflexivity | exact Hch].
  - right. eapply child_of_cont; [exact Hc0 | exact HcY | exact Ek | exact Hch].
  - left.
    assert (HfY' : w_is_free (word cY) = true) by (rewrite Ew; apply bump_free; exact Hf0).
    destruct HlY as [pth Hr].
    assert (HySt : y <= S t) by lia.
    apply (generated_stays_reachable H G y (S t) Y pth HySt Hr).
    intros u Hu.
    assert (Hyu : y <= u) by lia.
    destruct (alloc_later H (generated_cell_step H G) Y y u cy Hyu Hcy) as (cu & Hcu).
    exists cu. split; [exact Hcu|].
    destruct (w_is_obsolete (word cu)) eqn:Ho; [exfalso | reflexivity].
    assert (HuSt : u <= S t) by lia.
    pose proof (obsolete_later H G Y u (S t) cu cY HuSt Hcu Ho HcY) as E1.
    rewrite E1 in HfY'. cbv in HfY'. discriminate.
Qed.

Theorem generated_retire_unlinked : forall H R, generated H -> retire_obsolete H R -> retire_unlinked H R.
Proof.
  intros H R G RO r t n t' Hr Hle Hl.
  destruct (RO r t n Hr) as (c & Hc & Ho).
  destruct (linked_free H G t' n Hl) as (c' & Hc' & Hf).
  pose proof (obsolete_later H G n r t' c c' Hle Hc Ho Hc') as E1.
  rewrite E1 in Hf. cbv in Hf. discriminate.
Qed.

Theorem generated_discipline : forall H R, generated H -> retire_obsolete H R -> writers_discipline H R.
Proof.
  intros H R G RO. split; [apply generated_retire_unlinked; assumption | apply generated_frozen; exact G].
Qed.

Theorem generated_no_use_after_free : forall H R th s e tr,
  generated H -> retire_obsolete H R -> qsbr_safe R -> freed_via_retire H R ->
  in_period R th s e -> trace_ok H s tr -> own_retire_later R th tr ->
  forall d, In d tr -> d_at d <= e -> ~ rc_freed R (d_at d) (d_node d).
Proof.
  intros H R th s e tr G RO. apply no_use_after_free. apply generated_discipline; assumption.
Qed.

Lemma ux_H_early : forall t, t < 2 -> ux_H t = ux_g0.
Proof. intros t Ht. unfold ux_H. now destruct (Nat.ltb_spec t 2); [|lia]. Qed.

Lemma ux_H_late : forall t, 2 <= t -> ux_H t = ux_g1.
Proof. intros t Ht. unfold ux_H. now destruct (Nat.ltb_spec t 2); [lia|]. Qed.

Lemma ux_g0_reach : forall n pth, reach ux_g0 n pth -> n = 1 \/ n = 2 \/ n = 3.
Proof.
  intros n pth Hr. apply (closed_reach ux_g0 [(1, []); (2, [1%Z]); (3, [2%Z])] eq_refl) in Hr.
  destruct Hr as [E|[E|[E|[]]]]; injection E as <- _; auto.
Qed.

Lemma ux_g1_reach : forall n pth, reach ux_g1 n pth -> n = 3.
Proof. intros n pth Hr. apply (closed_reach ux_g1 [(3, [])] eq_refl) in Hr. destruct Hr as [E|[]]. now injection E. Qed.

Lemma ux_g2_reach : forall n pth, reach ux_g2 n pth -> n = 3.
Proof. intros n pth Hr. apply (closed_reach ux_g2 [(3, [])] eq_refl) in Hr. destruct Hr as [E|[]]. now injection E. Qed.

Lemma ux_late_unlinked : forall t n, 2 <= t -> n = 1 \/ n = 2 -> ~ linked (ux_H t) n.
Proof.
  intros t n Ht Hn [pth Hr]. rewrite ux_H_late in Hr by exact Ht. apply ux_g1_reach in Hr. lia.
Qed.

Lemma ux_g0_linked : forall n, n = 1 \/ n = 2 \/ n = 3 -> linked ux_g0 n.
Proof.
  intros n [-> | [-> | ->]]; eexists.
  - apply (reach_by ux_g0 1 []); reflexivity.
  - apply (reach_by ux_g0 1 [1%Z]); reflexivity.
  - apply (reach_by ux_g0 1 [2%Z]); reflexivity.
Qed.

Lemma ux_cont_const : forall t n, option_map cont (hp (ux_H t) n) = option_map cont (ux_hp0 n).
Proof.
  intros t n. unfold ux_H. destruct (t <? 2); [reflexivity|].
  destruct n as [|[|[|[|n]]]]; reflexivity.
Qed.

Lemma ux_child_of_const : forall t t' Y b c, child_of (ux_H t) Y b c -> child_of (ux_H t') Y b c.
Proof.
  intros t t' Y b c (cY & p & cs & Hc & Hk & Hf).
  pose proof (ux_cont_const t Y) as E1. pose proof (ux_cont_const t' Y) as E2.
  rewrite Hc in E1. cbn [option_map] in E1. rewrite <- E1 in E2.
  destruct (hp (ux_H t') Y) as [cY'|] eqn:Hc'; [|discriminate].
  cbn [option_map] in E2. injection E2 as E2. exists cY', p, cs. rewrite E2. auto.
Qed.

Lemma ux_frozen : obsolete_children_frozen ux_H.
Proof. intros Y y t b c _ _ Hch. right. eapply ux_child_of_const. exact Hch. Qed.

Lemma ux_discipline : forall rm fm qm, 2 <= rm -> writers_discipline ux_H (ux_R rm fm qm).
Proof.
  intros rm fm qm Hrm. split; [|exact ux_frozen].
  intros r t n t' (-> & _ & Hn) Hle. apply ux_late_unlinked; [lia | exact Hn].
Qed.

Lemma ux_freed_via_retire : forall H rm fm qm, rm <= fm -> freed_via_retire H (ux_R rm fm qm).
Proof.
  intros H rm fm qm Hle u n y (Hu & Hn) _ _. exists rm, 1. split; [lia|]. cbn. auto.
Qed.

Lemma ux_qsbr_safe : forall rm fm qm, rm < qm <= fm -> qsbr_safe (ux_R rm fm qm).
Proof.
  intros rm fm qm Hq r t n th u (-> & -> & _) Hne Hreg Hru Hnq (Hu & _).
  cbn in Hreg. destruct Hreg as [-> | ->]; [|contradiction].
  apply (Hnq qm); [lia|]. cbn. auto.
Qed.

Lemma ux_unlink_retires : forall rm fm qm, 2 <= rm -> unlink_retires ux_H (ux_R rm fm qm).
Proof.
  intros rm fm qm Hrm t n Hl Hnl.
  assert (Ht : t = 1).
  { destruct (Nat.lt_trichotomy t 1) as [Hlt | [-> | Hgt]]; [|reflexivity|]; exfalso; apply Hnl.
    - rewrite ux_H_early in * by lia. exact Hl.
    - rewrite ux_H_late in * by lia. exact Hl. }
  subst t. rewrite ux_H_early in Hl by lia. rewrite ux_H_late in Hnl by lia. destruct Hl as [pth Hr].
  destruct (ux_g0_reach _ _ Hr) as [-> | [-> | ->]].
  - exists rm, 1. split; [lia|]. cbn. auto.
  - exists rm, 1. split; [lia|]. cbn. auto.
  - exfalso. apply Hnl. exists []. apply reach_root. reflexivity.
Qed.

(** thread 0 retires nothing *)
Lemma ux_own : forall rm fm qm tr, own_retire_later (ux_R rm fm qm) 0 tr.
Proof.
  intros rm fm qm tr d r _. split.
  - intros (_ & E & _). discriminate.
  - intros Y b m _ (_ & E & _). discriminate.
Qed.

Lemma ux_child_1_2 : forall t, child_of (ux_H t) 1 1%Z 2.
Proof.
  intros t. apply (ux_child_of_const 0 t).
  exists {| word := 0%Z; cont := CInode [] [(1%Z, 2); (2%Z, 3)] |}, [], [(1%Z, 2); (2%Z, 3)].
  repeat split.
Qed.

Lemma ux_trace_ok : trace_ok ux_H 0 ux_trace.
Proof.
  apply (trace_from_ok ux_H 0 ux_trace [] (tr_nil _ _)). cbn.
  split; [lia|]. split; [reflexivity|]. split; [exact I|].
  split; [lia|]. split; [exact (ux_child_1_2 3)|]. split; [eexists; split; [left; reflexivity | cbn; lia]|].
  split; [lia|]. auto.
Qed.

Lemma ux_trace_q_ok : trace_ok ux_H 0 ux_trace_q.
Proof.
  apply (trace_from_ok ux_H 0 ux_trace_q [] (tr_nil _ _)). cbn.
  split; [lia|]. split; [reflexivity|]. split; [exact I|].
  split; [lia|]. split; [exact (ux_child_1_2 1)|]. split; [eexists; split; [left; reflexivity | cbn; lia]|exact I].
Qed.

Lemma ux_in_period : forall rm fm qm s e, e < qm -> in_period (ux_R rm fm qm) 0 s e.
Proof.
  intros rm fm qm s e He t Ht. split; [cbn; auto|]. intros _ (E & _). lia.
Qed.

Lemma ux_H2_cases : forall t, (t < 2 /\ ux_H2 t = ux_g0) \/ (t = 2 /\ ux_H2 t = ux_g1) \/ (3 <= t /\ ux_H2 t = ux_g2).
Proof.
  intros t. unfold ux_H2. destruct (Nat.ltb_spec t 2); [left; auto|].
  destruct (Nat.ltb_spec t 3); [right; left; split; [lia | reflexivity] | right; right; auto].
Qed.

Lemma ux_H2_linked : forall t n, linked (ux_H2 t) n -> (n = 1 \/ n = 2 \/ n = 3) /\ (2 <= t -> n = 3).
Proof.
  intros t n [pth Hr]. destruct (ux_H2_cases t) as [[Ht E] | [[Ht E] | [Ht E]]]; rewrite E in Hr.
  - split; [eapply ux_g0_reach; exact Hr | lia].
  - apply ux_g1_reach in Hr. auto.
  - apply ux_g2_reach in Hr. auto.
Qed.

Lemma ux_trace2_ok : trace_ok ux_H2 0 ux_trace2.
Proof.
  apply (trace_from_ok ux_H2 0 ux_trace2 [] (tr_nil _ _)). cbn.
  split; [lia|]. split; [reflexivity|]. split; [exact I|].
  split; [lia|]. split; [eexists; exists [], [(1%Z, 2); (2%Z, 3); (9%Z, 4)]; repeat split|].
  split; [eexists; split; [left; reflexivity | cbn; lia]|exact I].
Qed.

(** The hypotheses of [generated_no_use_after_free] are satisfiable: the run
    of Olc/WriteExample.v (empty -> root_insert [1;2] -> leaf_split [1;3] at
    the root slot, creating inode 1 over leaves 0 and 2 -> collapse of inode 1
    at moment 3).  The reader reads the root pointer at moment 2 and enters
    inode 1; the writer retires nodes 1 and 2 at moment 4; at moment 4 the
    reader reads the slot for byte 3 out of the obsolete inode 1 and at
    moment 5 touches the obsolete leaf 2. *)
Definition gen_H : history := fun t =>
  match t with 0 => ex_g0 | 1 => ex_g1 | 2 => ex_g2 | _ => ex_g3 end.

Definition gen_trace : list deref :=
  [ {| d_at := 2; d_node := 1; d_src := FromRoot 2 |};
    {| d_at := 5; d_node := 2; d_src := FromChild 1 3%Z 4 |} ].

Lemma gen_H_generated : generated gen_H.
Proof.
  split; [apply init_ok_empty; reflexivity|].
  intros [|[|[|t]]]; cbn [gen_H].
  - right. exists ex_k1. left. exists ex_v1. exact ex_step1.
  - right. exists ex_k2. left. exists ex_v2. exact ex_step2.
  - right. exists ex_k2. right. exact ex_step3.
  - left. reflexivity.
Qed.

Lemma gen_retire_obsolete : retire_obsolete gen_H (ux_R 4 8 7).
Proof. intros r t n (-> & _ & [-> | ->]); eexists; split; reflexivity. Qed.

Lemma gen_trace_ok : trace_ok gen_H 2 gen_trace.
Proof.
  apply (trace_from_ok gen_H 2 gen_trace [] (tr_nil _ _)). cbn.
  split; [lia|]. split; [reflexivity|]. split; [exact I|].
  split; [lia|]. split; [exists (mk 1 (CInode [1%Z] ex_csX)), [1%Z], ex_csX; repeat split|].
  split; [eexists; split; [left; reflexivity | cbn; lia]|exact I].
Qed.

Lemma gen_late_reach : forall n pth, reach (gen_H 3) n pth -> n = 0.
Proof. intros n pth Hr. apply (closed_reach ex_g3 [(0, [])] eq_refl) in Hr. destruct Hr as [E|[]]. now injection E. Qed.

Print Assumptions protected_until_quiescent.
Print Assumptions no_use_after_free.
Print Assumptions generated_discipline.
