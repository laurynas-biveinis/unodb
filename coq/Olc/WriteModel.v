(** C03 (writer side): the atomic commits of olc_db insert / remove as
    relations between heaps of Olc/ReadModel.v, the well-formedness invariant
    they maintain, and the histories they generate.  Definitions only. *)
From Coq Require Import List ZArith Bool Arith.
From Unodb Require Import Lock.LockModel Olc.ReadModel.
Import ListNotations.
Local Open Scope Z_scope.

(** ** Heap update, version bump *)
Definition heap := nid -> option cell.
Definition upd (h : heap) (n : nid) (c : cell) : heap :=
  fun m => if Nat.eqb m n then Some c else h m.
Definition bump (w : Z) : Z := w + 4.
Definition mk (w : Z) (ct : content) : cell := {| word := w; cont := ct |}.

(** ** Well-formedness *)

(** n is in the tree, is an inner node, and its slot for byte b holds m *)
Definition edge (g : gstate) (n : nid) (b : Z) (m : nid) : Prop :=
  exists q c p cs, reach g n q /\ hp g n = Some c /\ cont c = CInode p cs /\ find_child b cs = Some m.

Record WF (g : gstate) : Prop := {
  (* nodes in the tree are allocated and their word is free *)
  wf_alloc : forall n pth, reach g n pth -> exists c, hp g n = Some c /\ w_is_free (word c) = true;
  (* a leaf sits on the search path of its own key *)
  wf_leaf : forall n pth c kk v, reach g n pth -> hp g n = Some c -> cont c = CLeaf kk v ->
      pth = firstn (length pth) kk;
  (* a tree, not a DAG: at most one slot holds a given node; no slot holds the root *)
  wf_parent : forall n1 b1 n2 b2 m, edge g n1 b1 m -> edge g n2 b2 m -> n1 = n2 /\ b1 = b2;
  wf_root : forall r n b, root g = Some r -> edge g n b r -> False
}.

(** the children list cs' is cs with the slot of byte b set to o *)
Definition slot_set (cs : list (Z * nid)) (b : Z) (o : option nid) (cs' : list (Z * nid)) : Prop :=
  forall b', find_child b' cs' = if b' =? b then o else find_child b' cs.

(** what the writer's descent for k established about inner node N: it is in
    the tree at depth d on the search path of k, its prefix matches, b is the
    next key byte *)
Definition at_inode (g : gstate) (k : key) (N : nid) (d : nat) (cN : cell) (p : list Z) (cs : list (Z * nid)) (b : Z) : Prop :=
  reach g N (firstn d k) /\ (d <= length k)%nat /\ hp g N = Some cN /\ cont cN = CInode p cs /\
  prefix_at p d k /\ nth_error k (d + length p) = Some b.

(** ** Commit shapes.  Every shape bumps the word of each node whose content
    it changes and sets the word of each node it unlinks to 1. *)

Definition set_hp (g : gstate) (h : heap) : gstate :=
  {| hp := h; root_word := root_word g; root := root g |}.
Definition set_root (g : gstate) (h : heap) (r : option nid) : gstate :=
  {| hp := h; root_word := bump (root_word g); root := r |}.

(** S1 add_leaf: inner node N gets the new slot (b, fresh leaf L) *)
Inductive add_leaf (k : key) (v : val) (g g' : gstate) : Prop :=
| add_leaf_intro : forall N d cN p cs b L wl cs',
    at_inode g k N d cN p cs b -> find_child b cs = None ->
    hp g L = None -> w_is_free wl = true -> slot_set cs b (Some L) cs' ->
    g' = set_hp g (upd (upd (hp g) L (mk wl (CLeaf k v))) N (mk (bump (word cN)) (CInode p cs'))) ->
    add_leaf k v g g'.

(** S2 remove_leaf: inner node N loses the slot of the leaf L with key k; L obsolete *)
Inductive remove_leaf (k : key) (g g' : gstate) : Prop :=
| remove_leaf_intro : forall N d cN p cs b L cL v cs',
    at_inode g k N d cN p cs b -> find_child b cs = Some L ->
    hp g L = Some cL -> cont cL = CLeaf k v -> slot_set cs b None cs' ->
    g' = set_hp g (upd (upd (hp g) L (mk 1 (cont cL))) N (mk (bump (word cN)) (CInode p cs'))) ->
    remove_leaf k g g'.

(** S3 root_insert / root_remove: empty tree <-> single leaf *)
Inductive root_insert (k : key) (v : val) (g g' : gstate) : Prop :=
| root_insert_intro : forall L wl,
    root g = None -> hp g L = None -> w_is_free wl = true ->
    g' = set_root g (upd (hp g) L (mk wl (CLeaf k v))) (Some L) ->
    root_insert k v g g'.

Inductive root_remove (k : key) (g g' : gstate) : Prop :=
| root_remove_intro : forall L cL v,
    root g = Some L -> hp g L = Some cL -> cont cL = CLeaf k v ->
    g' = set_root g (upd (hp g) L (mk 1 (cont cL))) None ->
    root_remove k g g'.

(** ** Slots: the root pointer or the slot of byte bP of inner node P *)
Inductive slot := SRoot | SChild (P : nid) (bP : Z).

(** slot s holds node O, which is therefore in the tree at path Q *)
Definition slot_holds (g : gstate) (s : slot) (O : nid) (Q : list Z) : Prop :=
  match s with
  | SRoot => root g = Some O /\ Q = []
  | SChild P bP => exists pthP cP pP csP, reach g P pthP /\ hp g P = Some cP /\ cont cP = CInode pP csP /\
      find_child bP csP = Some O /\ Q = pthP ++ pP ++ [bP]
  end.

(** g' is g with heap h and slot s redirected to X; the root word resp. the
    word of P is bumped *)
Definition slot_redirect (g : gstate) (s : slot) (h : heap) (X : nid) (g' : gstate) : Prop :=
  match s with
  | SRoot => g' = set_root g h (Some X)
  | SChild P bP => exists cP pP csP csP', hp g P = Some cP /\ cont cP = CInode pP csP /\
      slot_set csP bP (Some X) csP' /\
      g' = set_hp g (upd h P (mk (bump (word cP)) (CInode pP csP')))
  end.

(** S4 leaf_split: the slot holding leaf L0 (key kL, differs from k first at
    depth d + |px|) is redirected to a fresh inner node X over L0 and a fresh
    leaf Lk; L0 is not touched *)
Inductive leaf_split (k : key) (v : val) (g g' : gstate) : Prop :=
| leaf_split_intro : forall s L0 d cL kL vL X wx px csX bl bk Lk wl h,
    slot_holds g s L0 (firstn d k) -> (d <= length k)%nat ->
    hp g L0 = Some cL -> cont cL = CLeaf kL vL ->
    prefix_at px d k -> prefix_at px d kL ->
    nth_error k (d + length px) = Some bk -> nth_error kL (d + length px) = Some bl -> bl <> bk ->
    (forall b0, find_child b0 csX = if b0 =? bk then Some Lk else if b0 =? bl then Some L0 else None) ->
    hp g X = None -> hp g Lk = None -> X <> Lk -> w_is_free wx = true -> w_is_free wl = true ->
    h = upd (upd (hp g) Lk (mk wl (CLeaf k v))) X (mk wx (CInode px csX)) ->
    slot_redirect g s h X g' ->
    leaf_split k v g g'.

(** what the writer's descent established about the node N held by slot s *)
Definition at_slot_inode (g : gstate) (k : key) (s : slot) (N : nid) (d : nat) (cN : cell) (p : list Z)
    (cs : list (Z * nid)) (b : Z) : Prop :=
  slot_holds g s N (firstn d k) /\ (d <= length k)%nat /\ hp g N = Some cN /\ cont cN = CInode p cs /\
  prefix_at p d k /\ nth_error k (d + length p) = Some b.

(** S5 replace (growth): the slot holding inner node N is redirected to a fresh
    copy N' with the same prefix and the children of N plus the fresh leaf L; N obsolete *)
Inductive replace_ins (k : key) (v : val) (g g' : gstate) : Prop :=
| replace_ins_intro : forall s N d cN p cs b N' wn cs' L wl h,
    at_slot_inode g k s N d cN p cs b -> find_child b cs = None ->
    hp g N' = None -> hp g L = None -> N' <> L -> w_is_free wn = true -> w_is_free wl = true ->
    slot_set cs b (Some L) cs' ->
    h = upd (upd (upd (hp g) L (mk wl (CLeaf k v))) N' (mk wn (CInode p cs'))) N (mk 1 (cont cN)) ->
    slot_redirect g s h N' g' ->
    replace_ins k v g g'.

(** S5 replace (shrink): ... the children of N minus the leaf L with key k; N and L obsolete *)
Inductive replace_rem (k : key) (g g' : gstate) : Prop :=
| replace_rem_intro : forall s N d cN p cs b N' wn cs' L cL v h,
    at_slot_inode g k s N d cN p cs b -> find_child b cs = Some L ->
    hp g L = Some cL -> cont cL = CLeaf k v ->
    hp g N' = None -> w_is_free wn = true ->
    slot_set cs b None cs' ->
    h = upd (upd (upd (hp g) L (mk 1 (cont cL))) N' (mk wn (CInode p cs'))) N (mk 1 (cont cN)) ->
    slot_redirect g s h N' g' ->
    replace_rem k g g'.

(** S6 prefix_split: the prefix p1 ++ bn :: p2 of inner node N differs from k
    at its byte bn; the slot holding N is redirected to a fresh inner node X
    with prefix p1 over N and the fresh leaf Lk; N keeps its children, its
    prefix is cut to p2 *)
Inductive prefix_split (k : key) (v : val) (g g' : gstate) : Prop :=
| prefix_split_intro : forall s N d cN p1 bn p2 cs bk X wx csX Lk wl h,
    slot_holds g s N (firstn d k) -> (d <= length k)%nat ->
    hp g N = Some cN -> cont cN = CInode (p1 ++ bn :: p2) cs ->
    prefix_at p1 d k -> nth_error k (d + length p1) = Some bk -> bk <> bn ->
    (forall b0, find_child b0 csX = if b0 =? bk then Some Lk else if b0 =? bn then Some N else None) ->
    hp g X = None -> hp g Lk = None -> X <> Lk -> w_is_free wx = true -> w_is_free wl = true ->
    h = upd (upd (upd (hp g) Lk (mk wl (CLeaf k v))) X (mk wx (CInode p1 csX))) N
            (mk (bump (word cN)) (CInode p2 cs)) ->
    slot_redirect g s h X g' ->
    prefix_split k v g g'.

(** S7 collapse: inner node N has exactly two children, the leaf L with key k
    and C; the slot holding N is redirected to C; if C is an inner node, the
    prefix of N and the byte of C are prepended to its prefix; N and L obsolete *)
Inductive collapse (k : key) (g g' : gstate) : Prop :=
| collapse_intro : forall s N d cN p cs b L cL v bc C cC cC' h,
    at_slot_inode g k s N d cN p cs b ->
    (forall b0, find_child b0 cs = if b0 =? b then Some L else if b0 =? bc then Some C else None) -> bc <> b ->
    hp g L = Some cL -> cont cL = CLeaf k v -> hp g C = Some cC ->
    ((exists kc vc, cont cC = CLeaf kc vc /\ cC' = cC) \/
     (exists pc csC, cont cC = CInode pc csC /\ cC' = mk (bump (word cC)) (CInode (p ++ bc :: pc) csC))) ->
    h = upd (upd (upd (hp g) L (mk 1 (cont cL))) N (mk 1 (cont cN))) C cC' ->
    slot_redirect g s h C g' ->
    collapse k g g'.

(** ** Commits and generated histories *)

(* COMMITS-BEGIN *)
Inductive ins_commit (k : key) (v : val) (g g' : gstate) : Prop :=
| ic_add_leaf : add_leaf k v g g' -> ins_commit k v g g'
| ic_root_insert : root_insert k v g g' -> ins_commit k v g g'
| ic_leaf_split : leaf_split k v g g' -> ins_commit k v g g'
| ic_replace_ins : replace_ins k v g g' -> ins_commit k v g g'
| ic_prefix_split : prefix_split k v g g' -> ins_commit k v g g'.

Inductive rem_commit (k : key) (g g' : gstate) : Prop :=
| rc_remove_leaf : remove_leaf k g g' -> rem_commit k g g'
| rc_root_remove : root_remove k g g' -> rem_commit k g g'
| rc_replace_rem : replace_rem k g g' -> rem_commit k g g'
| rc_collapse : collapse k g g' -> rem_commit k g g'.
(* COMMITS-END *)

Definition commit (k : key) (g g' : gstate) : Prop :=
  (exists v, ins_commit k v g g') \/ rem_commit k g g'.

Definition fp_ok (g : gstate) (fp : nid -> list Z) : Prop :=
  forall n pth c p cs, reach g n pth -> hp g n = Some c -> cont c = CInode p cs -> pth ++ p = fp n.
(** the initial tree: well-formed, and its (finitely many) inner nodes have their full paths tabulated *)
Definition init_ok (g : gstate) : Prop := WF g /\ exists fp, fp_ok g fp.

(** every moment is a stutter or one commit.  Fresh ids are ids that are not
    allocated; nothing is ever deallocated, so ids are never reused. *)
Definition generated (H : history) : Prop :=
  init_ok (H O) /\ forall t, H (S t) = H t \/ exists k, commit k (H t) (H (S t)).

(** the history that stops changing at moment T *)
Definition freeze (H : history) (T : nat) : history := fun t => H (Nat.min t T).

(** the abstract effect of a commit on the map *)
Definition key_eq_dec : forall a b : key, {a = b} + {a <> b} := list_eq_dec Z.eq_dec.

Definition insert_effect (k : key) (v : val) (g g' : gstate) : Prop :=
  lookup g k None /\
  forall k' r, lookup g' k' r <-> (if key_eq_dec k' k then r = Some v else lookup g k' r).

Definition remove_effect (k : key) (g g' : gstate) : Prop :=
  (exists v, lookup g k (Some v)) /\
  forall k' r, lookup g' k' r <-> (if key_eq_dec k' k then r = None else lookup g k' r).
