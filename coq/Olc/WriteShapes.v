(** C03 (writer side): consequences of well-formedness, what a step of a
    generated history must satisfy, and the root commit shapes S3 of Olc/WriteModel.v. *)
From Coq Require Import List ZArith Bool Arith Lia.
From Unodb Require Import Lock.LockModel Olc.ReadModel Olc.ReadProofs Olc.WriteModel.
Import ListNotations.
Local Open Scope Z_scope.
Local Open Scope nat_scope.

Lemma upd_eq : forall h n c, upd h n c n = Some c.
Proof. intros h n c. unfold upd. rewrite Nat.eqb_refl. reflexivity. Qed.

Lemma upd_neq : forall h n c m, m <> n -> upd h n c m = h m.
Proof. intros h n c m Hne. unfold upd. destruct (Nat.eqb_spec m n); [contradiction | reflexivity]. Qed.

Lemma bump_free : forall w, w_is_free w = true -> w_is_free (bump w) = true.
Proof.
  unfold w_is_free, bump. intros w Hf. apply Z.eqb_eq in Hf. apply Z.eqb_eq.
  replace (w + 4)%Z with (w + 1 * 4)%Z by lia. rewrite Z.mod_add by lia. exact Hf.
Qed.

Lemma obsolete_not_free : w_is_free 1 = false.
Proof. reflexivity. Qed.

Definition child (h : heap) (n : nid) (p : list Z) (b : Z) (m : nid) : Prop :=
  exists c cs, h n = Some c /\ cont c = CInode p cs /\ find_child b cs = Some m.

Lemma child_intro : forall (h : heap) n c p cs b m, h n = Some c -> cont c = CInode p cs ->
  find_child b cs = Some m -> child h n p b m.
Proof. intros. unfold child. eauto. Qed.

Lemma child_inv : forall (h : heap) n c p b m, h n = Some c -> child h n p b m ->
  exists cs, cont c = CInode p cs /\ find_child b cs = Some m.
Proof. intros h n c p b m Hc (c' & cs & Hc' & Hk & Hf). rewrite Hc in Hc'. injection Hc' as <-. eauto. Qed.

Lemma child_fun : forall (h : heap) n p1 b1 m1 p2 b2 m2, child h n p1 b1 m1 -> child h n p2 b2 m2 -> p1 = p2.
Proof.
  intros h n p1 b1 m1 p2 b2 m2 (c & cs & Hc & Hk & _) H2.
  destruct (child_inv _ _ _ _ _ _ Hc H2) as (cs2 & Hk2 & _). congruence.
Qed.

Lemma child_ext : forall (h h' : heap) n p b m, h' n = h n -> child h n p b m -> child h' n p b m.
Proof. intros h h' n p b m E (c & cs & Hc & H). exists c, cs. rewrite E. auto. Qed.

Lemma reach_step : forall g n q p b m, reach g n q -> child (hp g) n p b m -> reach g m (q ++ p ++ [b]).
Proof. intros g n q p b m Hr (c & cs & Hc & Hk & Hf). eapply reach_child; eassumption. Qed.

Lemma reach_child_ind : forall g (P : nid -> list Z -> Prop),
  (forall n, root g = Some n -> P n []) ->
  (forall n q p b m, reach g n q -> P n q -> child (hp g) n p b m -> P m (q ++ p ++ [b])) ->
  forall n q, reach g n q -> P n q.
Proof.
  intros g P H0 HS n q Hr. induction Hr as [n Hroot | n pth c p cs b c' Hr IH Hc Hk Hf]; [auto|].
  eapply HS; [exact Hr | exact IH | eapply child_intro; eassumption].
Qed.

Lemma edge_child : forall g n b m, edge g n b m <-> exists q p, reach g n q /\ child (hp g) n p b m.
Proof.
  intros g n b m. split.
  - intros (q & c & p & cs & Hr & Hc & Hk & Hf). exists q, p. split; [exact Hr | eapply child_intro; eassumption].
  - intros (q & p & Hr & c & cs & Hc & Hk & Hf). exists q, c, p, cs. auto.
Qed.

Lemma edge_of_child : forall g n q p b m, reach g n q -> child (hp g) n p b m -> edge g n b m.
Proof. intros g n q p b m Hr Hc. apply edge_child. eauto. Qed.

Lemma edge_intro : forall g n q c p cs b m, reach g n q -> hp g n = Some c -> cont c = CInode p cs ->
  find_child b cs = Some m -> edge g n b m.
Proof. intros. unfold edge. eauto 10. Qed.

Lemma edge_reach : forall g n b m, edge g n b m -> exists q, reach g m q.
Proof. intros g n b m E. apply edge_child in E. destruct E as (q & p & Hr & Hc). eexists. eapply reach_step; eassumption. Qed.

Lemma edge_source_alloc : forall g n b m, edge g n b m -> hp g n <> None.
Proof. intros g n b m (q & c & p & cs & _ & Hc & _). congruence. Qed.

Definition leaf_in (g : gstate) (k : key) (v : val) : Prop :=
  exists n pth c, reach g n pth /\ hp g n = Some c /\ cont c = CLeaf k v.

Lemma lookup_rel_leaf : forall g k n d r, lookup_rel (hp g) k n d r ->
  forall v pth, r = Some v -> reach g n pth -> leaf_in g k v.
Proof.
  intros g k n d r Hl.
  induction Hl as [n d c v0 Hc Hk | n d c k' v0 Hc Hk Hne | n d c p cs Hc Hk Hnp
                  | n d c p cs Hc Hk Hp Hn | n d c p cs c' r Hc Hk Hp Hn Hl IH];
    intros v pth Er Hr; try discriminate.
  - injection Er as ->. exists n, pth, c. auto.
  - unfold next_child in Hn. destruct (nth_error k (d + length p)) as [b|]; [|discriminate].
    eapply IH; [exact Er|]. eapply reach_child; eassumption.
Qed.

Lemma lookup_leaf_in : forall g k v, lookup g k (Some v) -> leaf_in g k v.
Proof.
  unfold lookup. intros g k v Hl. destruct (root g) as [r|] eqn:Hr; [|discriminate].
  eapply lookup_rel_leaf; [exact Hl | reflexivity | apply reach_root; exact Hr].
Qed.

Lemma leaf_in_lookup : forall g k v, WF g -> leaf_in g k v -> lookup g k (Some v).
Proof.
  intros g k v W (n & pth & c & Hr & Hc & Hk).
  pose proof (wf_leaf g W _ _ _ _ _ Hr Hc Hk) as E.
  assert (Hd : length pth <= length k) by (rewrite E, firstn_length; lia).
  apply (reach_lookup g k n pth Hr (length pth) E Hd).
  eapply lr_leaf_hit; eassumption.
Qed.

(** total, since every step consumes a key byte *)
Lemma lookup_rel_total : forall g k, WF g ->
  forall fuel d n pth, length k - d < fuel -> reach g n pth -> exists r, lookup_rel (hp g) k n d r.
Proof.
  intros g k W. induction fuel as [|fuel IH]; intros d n pth Hf Hr; [lia|].
  destruct (wf_alloc g W _ _ Hr) as (c & Hc & _).
  destruct (cont c) as [kk v | p cs] eqn:Hk.
  - destruct (key_eq_dec kk k) as [->|Hne].
    + exists (Some v). eapply lr_leaf_hit; eassumption.
    + exists None. eapply lr_leaf_miss; eassumption.
  - destruct (list_eq_dec Z.eq_dec (firstn (length p) (skipn d k)) p) as [Hp|Hnp].
    + destruct (next_child p cs d k) as [c'|] eqn:Hn.
      * pose proof Hn as Hn'. unfold next_child in Hn'.
        destruct (nth_error k (d + length p)) as [b|] eqn:Hb; [|discriminate].
        assert (Hlt : d + length p < length k) by (apply nth_error_Some; congruence).
        destruct (IH (d + length p + 1) c' (pth ++ p ++ [b])) as [r Hl]; [lia | eapply reach_child; eassumption |].
        exists r. eapply lr_step; eassumption.
      * exists None. eapply lr_no_child; eassumption.
    + exists None. eapply lr_prefix_miss; eassumption.
Qed.

Lemma lookup_total : forall g k, WF g -> exists r, lookup g k r.
Proof.
  intros g k W. unfold lookup. destruct (root g) as [r|] eqn:Hr; [|eauto].
  apply (lookup_rel_total g k W (S (length k)) 0 r []); [lia | apply reach_root; exact Hr].
Qed.

Lemma lookup_transfer : forall g g' (P : key -> Prop), WF g -> WF g' ->
  (forall k' v', P k' -> (leaf_in g' k' v' <-> leaf_in g k' v')) ->
  forall k' r, P k' -> (lookup g' k' r <-> lookup g k' r).
Proof.
  intros g g' P W W' HL k' r HP.
  assert (S1 : forall v', lookup g' k' (Some v') <-> lookup g k' (Some v')).
  { intros v'. split; intros Hl.
    - apply leaf_in_lookup; [exact W|]. apply HL; [exact HP|]. apply lookup_leaf_in. exact Hl.
    - apply leaf_in_lookup; [exact W'|]. apply HL; [exact HP|]. apply lookup_leaf_in. exact Hl. }
  destruct r as [v'|]; [apply S1|].
  split; intros Hl.
  - destruct (lookup_total g k' W) as [[v'|] Hr]; [|exact Hr].
    apply S1 in Hr. pose proof (lookup_deterministic _ _ _ _ Hl Hr). discriminate.
  - destruct (lookup_total g' k' W') as [[v'|] Hr]; [|exact Hr].
    apply S1 in Hr. pose proof (lookup_deterministic _ _ _ _ Hl Hr). discriminate.
Qed.

Lemma reach_unique : forall g n q1 q2, WF g -> reach g n q1 -> reach g n q2 -> q1 = q2.
Proof.
  intros g n q1 q2 W H1. revert q2.
  induction H1 as [n Hroot | n pth c p cs b c' Hr IH Hc Hk Hf]; intros q2 H2.
  - inversion H2 as [n0 Hroot2 | n0 pth0 c0 p0 cs0 b0 c0' Hr0 Hc0 Hk0 Hf0]; subst; [reflexivity|].
    exfalso. eapply (wf_root g W); [exact Hroot|]. eapply edge_intro; eassumption.
  - inversion H2 as [n0 Hroot2 | n0 pth0 c0 p0 cs0 b0 c0' Hr0 Hc0 Hk0 Hf0]; subst.
    + exfalso. eapply (wf_root g W); [exact Hroot2|]. exact (edge_intro g n pth c p cs b c' Hr Hc Hk Hf).
    + assert (E1 : edge g n b c') by exact (edge_intro g n pth c p cs b c' Hr Hc Hk Hf).
      assert (E2 : edge g n0 b0 c') by exact (edge_intro g n0 pth0 c0 p0 cs0 b0 c' Hr0 Hc0 Hk0 Hf0).
      destruct (wf_parent g W n b n0 b0 c' E1 E2) as [-> ->].
      rewrite (IH _ Hr0). rewrite Hc in Hc0. injection Hc0 as <-. rewrite Hk in Hk0. injection Hk0 as <- <-.
      reflexivity.
Qed.

Lemma reach_alloc : forall g n q, WF g -> reach g n q -> hp g n <> None.
Proof. intros g n q W Hr. destruct (wf_alloc g W _ _ Hr) as (c & Hc & _). congruence. Qed.

Lemma edge_target_alloc : forall g n b m, WF g -> edge g n b m -> hp g m <> None.
Proof. intros g n b m W E. destruct (edge_reach _ _ _ _ E) as [q Hr]. eapply reach_alloc; eassumption. Qed.

Lemma app_self_nil : forall (A : Type) (q r : list A), q = q ++ r -> r = [].
Proof.
  intros A q r E. apply (app_inv_head q). rewrite app_nil_r. symmetry. exact E.
Qed.

Lemma no_self_edge : forall g n b, WF g -> edge g n b n -> False.
Proof.
  intros g n b W E. apply edge_child in E. destruct E as (q & p & Hr & Hc).
  pose proof (reach_unique g n _ _ W Hr (reach_step _ _ _ _ _ _ Hr Hc)) as E. apply app_self_nil in E.
  destruct p; discriminate.
Qed.

Lemma no_two_cycle : forall g a b1 c b2, WF g -> edge g a b1 c -> edge g c b2 a -> False.
Proof.
  intros g a b1 c b2 W Ea Ec. apply edge_child in Ea, Ec.
  destruct Ea as (qa & pa & Hra & Hca). destruct Ec as (qc & pc & Hrc & Hcc).
  pose proof (reach_step _ _ _ _ _ _ Hra Hca) as R1.
  rewrite (reach_unique g c _ _ W Hrc R1) in Hrc.
  pose proof (reach_unique g a _ _ W Hra (reach_step _ _ _ _ _ _ Hrc Hcc)) as E.
  rewrite <- app_assoc in E. apply app_self_nil in E. destruct pa; discriminate.
Qed.

(** cells change only together with their word; nothing is deallocated *)
Definition cell_step (g g' : gstate) : Prop :=
  forall n c, hp g n = Some c -> exists c', hp g' n = Some c' /\
    (c' = c \/ (w_is_free (word c) = true /\ (word c' = bump (word c) \/ word c' = 1%Z))).
Definition root_step (g g' : gstate) : Prop :=
  (root g' = root g /\ root_word g' = root_word g) \/ root_word g' = bump (root_word g).
(** W1 and W2 of Olc/ReadModel.v, for one step *)
Definition w1_step (g g' : gstate) : Prop :=
  forall n pth, reach g n pth -> (forall c', hp g' n = Some c' -> w_is_obsolete (word c') = false) ->
    exists pth', reach g' n pth'.
Definition w2_step (g g' : gstate) : Prop :=
  forall fp, fp_ok g fp -> exists fp', fp_ok g' fp' /\ forall n c, hp g n = Some c -> fp' n = fp n.

Definition step_ok (g g' : gstate) : Prop :=
  WF g' /\ cell_step g g' /\ root_step g g' /\ w1_step g g' /\ w2_step g g'.

Lemma effect_intro : forall k g g' r', WF g -> WF g' -> lookup g' k r' ->
  (forall k' v', k' <> k -> (leaf_in g' k' v' <-> leaf_in g k' v')) ->
  forall k' x, lookup g' k' x <-> if key_eq_dec k' k then x = r' else lookup g k' x.
Proof.
  intros k g g' r' W W' H1 HL k' x. destruct (key_eq_dec k' k) as [->|Hne].
  - split; [intros Hl; eapply lookup_deterministic; eassumption | intros ->; exact H1].
  - apply (lookup_transfer g g' (fun x => x <> k) W W' HL k' x Hne).
Qed.

Lemma at_inode_lookup : forall g k N d cN p cs b r, at_inode g k N d cN p cs b ->
  match find_child b cs with
  | None => r = None
  | Some L => exists cL v, hp g L = Some cL /\ cont cL = CLeaf k v /\ r = Some v
  end -> lookup g k r.
Proof.
  intros g k N d cN p cs b r (Hr & Hd & Hc & Hk & Hp & Hb) Hf. apply (reach_lookup g k N _ Hr d eq_refl Hd).
  destruct (find_child b cs) as [L|] eqn:E.
  - destruct Hf as (cL & v & HcL & HkL & ->). eapply lr_step; try eassumption.
    + unfold next_child. rewrite Hb. exact E.
    + eapply lr_leaf_hit; eassumption.
  - subst r. eapply lr_no_child; try eassumption. unfold next_child. rewrite Hb. exact E.
Qed.

Lemma firstn_app_prefix : forall (a r kk : list Z), a ++ r = firstn (length (a ++ r)) kk -> a = firstn (length a) kk.
Proof.
  intros a r kk E. assert (E' : firstn (length a) (a ++ r) = firstn (length a) (firstn (length (a ++ r)) kk)) by (rewrite <- E; reflexivity).
  rewrite firstn_app_exact in E'. rewrite firstn_firstn in E'.
  rewrite Nat.min_l in E' by (rewrite app_length; lia). exact E'.
Qed.

Lemma prefix_at_nth : forall d k (p1 : list Z) x p2, prefix_at (p1 ++ x :: p2) d k ->
  nth_error k (d + length p1) = Some x.
Proof.
  intros d k p1 x p2 Hp. unfold prefix_at in Hp. rewrite nth_error_skipn.
  rewrite <- (firstn_skipn (length (p1 ++ x :: p2)) (skipn d k)), Hp, <- app_assoc.
  apply nth_error_app_exact.
Qed.

Lemma path_extend_self : forall d (k p : list Z) b, prefix_at p d k -> nth_error k (d + length p) = Some b ->
  firstn d k ++ p ++ [b] = firstn (length (firstn d k ++ p ++ [b])) k.
Proof.
  intros d k p b Hp Hb. destruct (path_extend d k p b Hp Hb) as [E Hle].
  rewrite E at 2. rewrite firstn_length_le by exact Hle. exact E.
Qed.

Lemma slot_set_inv : forall cs b o cs' b0 m, slot_set cs b o cs' -> find_child b0 cs' = Some m ->
  (b0 = b /\ o = Some m) \/ (b0 <> b /\ find_child b0 cs = Some m).
Proof. intros cs b o cs' b0 m H Hf. rewrite H in Hf. destruct (Z.eqb_spec b0 b); auto. Qed.

Lemma slot_set_same : forall cs b o cs', slot_set cs b o cs' -> find_child b cs' = o.
Proof. intros cs b o cs' H. rewrite H, Z.eqb_refl. reflexivity. Qed.

Lemma slot_set_other : forall cs b o cs' b0, slot_set cs b o cs' -> b0 <> b -> find_child b0 cs' = find_child b0 cs.
Proof. intros cs b o cs' b0 H Hne. rewrite H. destruct (Z.eqb_spec b0 b); [contradiction | reflexivity]. Qed.

Lemma slot_set_id : forall cs b m, find_child b cs = Some m -> slot_set cs b (Some m) cs.
Proof. intros cs b m Hf b'. destruct (Z.eqb_spec b' b) as [->|_]; [exact Hf | reflexivity]. Qed.

Lemma two_children_inv : forall (cs : list (Z * nid)) b1 m1 b2 m2,
  (forall b0, find_child b0 cs = if (b0 =? b1)%Z then Some m1 else if (b0 =? b2)%Z then Some m2 else None) ->
  find_child b1 cs = Some m1 /\ (b2 <> b1 -> find_child b2 cs = Some m2) /\
  forall b0 m, find_child b0 cs = Some m -> (b0 = b1 /\ m = m1) \/ (b0 = b2 /\ m = m2).
Proof.
  intros cs b1 m1 b2 m2 H. split; [|split].
  - rewrite H, Z.eqb_refl. reflexivity.
  - intros Hne. rewrite H, Z.eqb_refl. destruct (Z.eqb_spec b2 b1); [contradiction | reflexivity].
  - intros b0 m Hf. rewrite H in Hf.
    destruct (Z.eqb_spec b0 b1); [left | destruct (Z.eqb_spec b0 b2); [right | discriminate]]; split; congruence.
Qed.

(** what a commit leaves of the cell of a node it does not touch: only the
    parent of a redirected slot changes (word bumped, same prefix) *)
Definition kept (c c1 : cell) : Prop :=
  c1 = c \/ (w_is_free (word c) = true /\ word c1 = bump (word c) /\
            exists p cs cs1, cont c = CInode p cs /\ cont c1 = CInode p cs1).

Lemma kept_free : forall c c1, kept c c1 -> w_is_free (word c) = true -> w_is_free (word c1) = true.
Proof. intros c c1 [-> | (_ & E & _)] Hf; [exact Hf | rewrite E; apply bump_free; exact Hf]. Qed.

Lemma kept_leaf : forall c c1 k v, kept c c1 -> cont c = CLeaf k v \/ cont c1 = CLeaf k v -> c1 = c.
Proof. intros c c1 k v [E | (_ & _ & p & cs & cs1 & E0 & E1)] Hk; [exact E | destruct Hk; congruence]. Qed.

Lemma kept_inode : forall c c1 p cs1, kept c c1 -> cont c1 = CInode p cs1 -> exists cs, cont c = CInode p cs.
Proof.
  intros c c1 p cs1 [-> | (_ & _ & p0 & cs & cs2 & E0 & E1)] Hk; [eauto|].
  rewrite Hk in E1. injection E1 as <- <-. eauto.
Qed.

Lemma empty_unreach : forall g m q, root g = None -> reach g m q -> False.
Proof. intros g m q Hn Hr. induction Hr as [n Hroot | n pth c p cs b c' Hr IH Hc Hk Hf]; [congruence | exact IH]. Qed.

Lemma WF_empty : forall g, root g = None -> WF g.
Proof.
  intros g Hn. constructor.
  - intros n pth Hr. exfalso. eapply empty_unreach; eassumption.
  - intros n pth c kk v Hr. exfalso. eapply empty_unreach; eassumption.
  - intros n1 b1 n2 b2 m (q & c & p & cs & Hr & _). exfalso. eapply empty_unreach; eassumption.
  - intros r n b Hr. congruence.
Qed.

Theorem root_insert_ok : forall k v g g', WF g -> root_insert k v g g' -> step_ok g g' /\ insert_effect k v g g'.
Proof.
  intros k v g g0 W [L wl Hroot HL Hwl ->].
  set (g' := set_root g (upd (hp g) L (mk wl (CLeaf k v))) (Some L)).
  assert (hL : hp g' L = Some (mk wl (CLeaf k v))) by apply upd_eq.
  assert (R : forall m q, reach g' m q -> m = L /\ q = []).
  { apply reach_child_ind.
    - intros n Hr. cbn in Hr. injection Hr as <-. auto.
    - intros n q p b m _ [-> _] Hc. destruct (child_inv _ _ _ _ _ _ hL Hc) as (cs & Hk & _). discriminate. }
  assert (NE : forall n b m, edge g' n b m -> False).
  { intros n b m E. apply edge_child in E. destruct E as (q & p & Hr & Hc). destruct (R _ _ Hr) as [-> _].
    destruct (child_inv _ _ _ _ _ _ hL Hc) as (cs & Hk & _). discriminate. }
  assert (W' : WF g').
  { constructor.
    - intros n q Hr. destruct (R _ _ Hr) as [-> _]. eauto.
    - intros n q c kk v0 Hr _ _. destruct (R _ _ Hr) as [_ ->]. reflexivity.
    - intros n1 b1 n2 b2 m E. destruct (NE _ _ _ E).
    - intros r n b _ E. exact (NE _ _ _ E). }
  split; [split; [exact W' | split; [|split; [|split]]] | split].
  - intros n c Hc. exists c. split; [|left; reflexivity]. cbn. rewrite upd_neq; [exact Hc | congruence].
  - right. reflexivity.
  - intros n q Hr. destruct (empty_unreach g n q Hroot Hr).
  - intros fp _. exists fp. split; [|reflexivity]. intros n q c p cs Hr Hc Hk.
    destruct (R _ _ Hr) as [-> _]. rewrite hL in Hc. injection Hc as <-. discriminate.
  - unfold lookup. rewrite Hroot. reflexivity.
  - apply effect_intro; [exact W | exact W' | |].
    + unfold lookup. cbn [root g' set_root]. eapply lr_leaf_hit; [exact hL | reflexivity].
    + intros k' v' Hne. split; intros (n & q & c & Hr & Hc & Hk).
      * destruct (R _ _ Hr) as [-> _]. rewrite hL in Hc. injection Hc as <-. cbn in Hk. congruence.
      * destruct (empty_unreach g n q Hroot Hr).
Qed.

Theorem root_remove_ok : forall k g g', WF g -> root_remove k g g' -> step_ok g g' /\ remove_effect k g g'.
Proof.
  intros k g g0 W [L cL v Hroot HcL HkL ->].
  set (g' := set_root g (upd (hp g) L (mk 1 (cont cL))) None).
  assert (W' : WF g') by (apply WF_empty; reflexivity).
  assert (R : forall m q, reach g m q -> m = L).
  { apply reach_child_ind; [congruence|]. intros n q p b m _ -> Hc.
    destruct (child_inv _ _ _ _ _ _ HcL Hc) as (cs & Hk & _). congruence. }
  split; [split; [exact W' | split; [|split; [|split]]] | split].
  - intros n c Hc. destruct (Nat.eq_dec n L) as [->|Hne].
    + cbn. rewrite upd_eq. eexists. split; [reflexivity|]. right. cbn [word mk].
      destruct (wf_alloc g W L [] (reach_root g L Hroot)) as (c0 & Hc0 & Hf0).
      split; [congruence | right; reflexivity].
    + exists c. split; [|left; reflexivity]. cbn. rewrite upd_neq; assumption.
  - right. reflexivity.
  - intros n q Hr Hno. rewrite (R _ _ Hr) in Hno.
    specialize (Hno (mk 1 (cont cL))). cbn in Hno. rewrite upd_eq in Hno. specialize (Hno eq_refl). discriminate.
  - intros fp _. exists fp. split; [|reflexivity]. intros n q c p cs Hr.
    destruct (empty_unreach g' n q eq_refl Hr).
  - exists v. unfold lookup. rewrite Hroot. eapply lr_leaf_hit; eassumption.
  - apply effect_intro; [exact W | exact W' | reflexivity |].
    intros k' v' Hne. split; intros (n & q & c & Hr & Hc & Hk).
    + destruct (empty_unreach g' n q eq_refl Hr).
    + rewrite (R _ _ Hr) in Hc. congruence.
Qed.
