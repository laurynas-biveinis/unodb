(** C03 (writer side): the commit shapes that rewrite an inner node in place
    or redirect a slot (root pointer or child slot).  Section Redirect relates
    the heaps before and after such a commit for an explicit set of touched
    nodes; each shape supplies what is specific to it.

    Lemma prefixes: [sh_] of [slot_holds]; [rd_] what the redirection [redir]
    alone gives; [dl_] (difference of g and g') what it gives together with
    the touched set, up to [delta_ok]. *)
From Coq Require Import List ZArith Bool Arith.
From Unodb Require Import Lock.LockModel Olc.ReadModel Olc.ReadProofs Olc.WriteModel Olc.WriteShapes.
Import ListNotations.
Local Open Scope Z_scope.
Local Open Scope nat_scope.

Lemma slot_holds_inv : forall g s O Q, slot_holds g s O Q ->
  match s with
  | SRoot => root g = Some O /\ Q = []
  | SChild P bP => exists q p, reach g P q /\ child (hp g) P p bP O /\ Q = q ++ p ++ [bP]
  end.
Proof.
  intros g [|P bP] O Q Hs; [exact Hs|]. destruct Hs as (q & c & p & cs & Hr & Hc & Hk & Hf & ->).
  exists q, p. split; [exact Hr | split; [eapply child_intro; eassumption | reflexivity]].
Qed.

Lemma reach_slot_holds : forall g N Q, reach g N Q -> exists s, slot_holds g s N Q.
Proof.
  intros g N Q Hr. destruct Hr as [n Hroot | n pth c p cs b c' Hr Hc Hk Hf].
  - exists SRoot. split; [exact Hroot | reflexivity].
  - exists (SChild n b), pth, c, p, cs. auto.
Qed.

Lemma sh_reach : forall g s O Q, slot_holds g s O Q -> reach g O Q.
Proof.
  intros g s O Q Hs. pose proof (slot_holds_inv g s O Q Hs) as I. destruct s as [|P bP].
  - destruct I as [Hr ->]. apply reach_root. exact Hr.
  - destruct I as (q & p & Hr & Hc & ->). eapply reach_step; eassumption.
Qed.

Lemma sh_edge : forall g P bP O Q, slot_holds g (SChild P bP) O Q -> edge g P bP O.
Proof. intros g P bP O Q Hs. destruct (slot_holds_inv _ _ _ _ Hs) as (q & p & Hr & Hc & _). eapply edge_of_child; eassumption. Qed.

Lemma sh_edge_in : forall g s O Q n b, WF g -> slot_holds g s O Q -> edge g n b O -> s = SChild n b.
Proof.
  intros g [|P bP] O Q n b W Hs E.
  - destruct Hs as [Hr _]. exfalso. eapply (wf_root g W); eassumption.
  - destruct (wf_parent g W _ _ _ _ _ E (sh_edge g P bP O Q Hs)) as [-> ->]. reflexivity.
Qed.

Lemma sh_root : forall g s O Q, WF g -> slot_holds g s O Q -> root g = Some O -> s = SRoot.
Proof.
  intros g [|P bP] O Q W Hs Hr; [reflexivity|]. exfalso. eapply (wf_root g W); [exact Hr | eapply sh_edge; exact Hs].
Qed.

Lemma at_slot_at_inode : forall g k s N d cN p cs b,
  at_slot_inode g k s N d cN p cs b -> at_inode g k N d cN p cs b.
Proof. intros g k s N d cN p cs b (Hs & H). split; [exact (sh_reach _ _ _ _ Hs) | exact H]. Qed.

Section RedirectFresh.
  Variables (g : gstate) (s : slot) (O : nid) (Q : list Z) (h : heap) (X : nid) (g' : gstate).
  Hypothesis W : WF g.
  Hypothesis Hs : slot_holds g s O Q.
  Hypothesis Hrd : slot_redirect g s h X g'.
  Hypothesis HX : hp g X = None.

  Lemma rd_X_ne_O : X <> O.
  Proof. intros ->. destruct (wf_alloc g W _ _ (sh_reach g s O Q Hs)) as (c & Hc & _). congruence. Qed.
End RedirectFresh.

(** second disjunct: O is rewritten in place, no slot changes *)
Definition redir (g : gstate) (s : slot) (O : nid) (h : heap) (X : nid) (g' : gstate) : Prop :=
  slot_redirect g s h X g' \/ (X = O /\ g' = set_hp g h).

Lemma slot_cases : forall s, s = SRoot \/ exists P bP, s = SChild P bP.
Proof. intros [|P bP]; eauto. Qed.

Section Redirect.
  Variables (g : gstate) (s : slot) (O : nid) (Q : list Z) (h : heap) (X : nid) (g' : gstate).
  Hypothesis W : WF g.
  Hypothesis Hs : slot_holds g s O Q.
  Hypothesis Hrd : redir g s O h X g'.

  Lemma rd_root : root g' = match s with SRoot => Some X | SChild _ _ => root g end.
  Proof.
    destruct Hrd as [R | [-> ->]]; destruct s as [|P bP].
    - cbn in R. subst g'. reflexivity.
    - destruct R as (cP & pP & csP & csP' & _ & _ & _ & ->). reflexivity.
    - apply Hs.
    - reflexivity.
  Qed.

  Lemma rd_root_step : root_step g g'.
  Proof.
    destruct Hrd as [R | [_ ->]]; [|left; split; reflexivity]. destruct s as [|P bP]; cbn in R.
    - subst g'. right. reflexivity.
    - destruct R as (cP & pP & csP & csP' & _ & _ & _ & ->). left. split; reflexivity.
  Qed.

  Lemma rd_hp : forall n, (forall bP, s <> SChild n bP) -> hp g' n = h n.
  Proof.
    intros n Hn. destruct Hrd as [R | [_ ->]]; [|reflexivity]. destruct s as [|P bP]; cbn in R.
    - subst g'. reflexivity.
    - destruct R as (cP & pP & csP & csP' & _ & _ & _ & ->). cbn. apply upd_neq. intros ->. apply (Hn bP). reflexivity.
  Qed.

  Lemma rd_root_new : forall r, root g' = Some r ->
    (s = SRoot /\ r = X /\ Q = []) \/ (root g = Some r /\ r <> O).
  Proof.
    intros r Hr. rewrite rd_root in Hr. destruct (slot_cases s) as [Es | (P & bP & Es)]; rewrite Es in Hr.
    - injection Hr as <-. left. split; [exact Es | split; [reflexivity|]]. pose proof Hs as Hs'. rewrite Es in Hs'. apply Hs'.
    - right. split; [exact Hr|]. intros ->. pose proof (sh_root g _ O Q W Hs Hr). congruence.
  Qed.

  Lemma rd_root_old : forall n, root g = Some n -> n <> O -> root g' = Some n.
  Proof.
    intros n Hroot Hne. rewrite rd_root. destruct s as [|P bP]; [|exact Hroot]. destruct Hs as [Hr0 _]. congruence.
  Qed.

  Lemma rd_root_X : root g = Some O -> reach g' X Q.
  Proof.
    intros Hroot. pose proof (sh_root g s O Q W Hs Hroot) as Es. pose proof Hs as Hs'. rewrite Es in Hs'.
    rewrite (proj2 Hs'). apply reach_root. rewrite rd_root, Es. reflexivity.
  Qed.

  Lemma rd_hp_off : forall n P bP, s = SChild P bP -> n <> P -> hp g' n = h n.
  Proof. intros n P bP Es Hne. apply rd_hp. congruence. Qed.

  Section Parent.
  Hypothesis HhP : forall P bP, s = SChild P bP -> h P = hp g P.

  Lemma rd_parent : forall P bP, s = SChild P bP -> exists cP c1 pP csP csP',
    hp g P = Some cP /\ cont cP = CInode pP csP /\ find_child bP csP = Some O /\
    hp g' P = Some c1 /\ cont c1 = CInode pP csP' /\ slot_set csP bP (Some X) csP' /\
    (c1 = cP \/ word c1 = bump (word cP)).
  Proof.
    intros P bP Es. pose proof Hs as Hs'. rewrite Es in Hs'. destruct Hs' as (q & cP & pP & csP & _ & HcP & HkP & Hf & _).
    destruct Hrd as [R | [-> ->]].
    - rewrite Es in R. destruct R as (cP' & pP' & csP0 & csP' & HcP' & HkP' & Hset & ->).
      rewrite HcP in HcP'. injection HcP' as <-. rewrite HkP in HkP'. injection HkP' as <- <-.
      exists cP, (mk (bump (word cP)) (CInode pP csP')), pP, csP, csP'. cbn. rewrite upd_eq. repeat split; auto.
    - exists cP, cP, pP, csP, csP. cbn [hp set_hp]. rewrite (HhP P bP Es). repeat split; auto. apply slot_set_id. exact Hf.
  Qed.

  Lemma rd_step_bwd : forall n q p b m, reach g n q -> h n = hp g n -> child (hp g') n p b m ->
    (m = X /\ q ++ p ++ [b] = Q /\ s = SChild n b) \/ (m <> O /\ child (hp g) n p b m).
  Proof.
    intros n q p b m Hr Hh Hc.
    assert (Old : child (hp g) n p b m -> s <> SChild n b -> m <> O /\ child (hp g) n p b m).
    { intros Hc0 Hns. split; [|exact Hc0]. intros ->. apply Hns.
      eapply sh_edge_in; [exact W | exact Hs | eapply edge_of_child; eassumption]. }
    destruct (slot_cases s) as [Es | (P & bP & Es)].
    - right. apply Old; [|congruence]. eapply child_ext; [|exact Hc]. rewrite <- Hh. symmetry. apply rd_hp. congruence.
    - destruct (Nat.eq_dec n P) as [->|Hne].
      + destruct (rd_parent P bP Es) as (cP & c1 & pP & csP & csP' & HcP & HkP & HfO & Hc1 & Hk1 & Hset & _).
        destruct (child_inv _ _ _ _ _ _ Hc1 Hc) as (cs & Hk & Hf). rewrite Hk1 in Hk. injection Hk as <- <-.
        destruct (slot_set_inv _ _ _ _ _ _ Hset Hf) as [[-> E] | [Hb Hf0]].
        * injection E as <-. left. split; [reflexivity | split; [|exact Es]].
          pose proof (slot_holds_inv _ _ _ _ Hs) as I. rewrite Es in I. destruct I as (qP & pP' & HrP & HcO & ->).
          rewrite (reach_unique g P q qP W Hr HrP).
          destruct (child_inv _ _ _ _ _ _ HcP HcO) as (cs0 & Hk0 & _). congruence.
        * right. apply Old; [eapply child_intro; eassumption | congruence].
      + right. apply Old; [|congruence]. eapply child_ext; [|exact Hc]. rewrite <- Hh. symmetry. eapply rd_hp_off; eassumption.
  Qed.

  Lemma rd_step_fwd : forall n p b m, h n = hp g n -> child (hp g) n p b m -> m <> O -> child (hp g') n p b m.
  Proof.
    intros n p b m Hh Hc Hne. destruct (slot_cases s) as [Es | (P & bP & Es)].
    - eapply child_ext; [|exact Hc]. rewrite <- Hh. apply rd_hp. congruence.
    - destruct (Nat.eq_dec n P) as [->|HnP].
      + destruct (rd_parent P bP Es) as (cP & c1 & pP & csP & csP' & HcP & HkP & HfO & Hc1 & Hk1 & Hset & _).
        destruct (child_inv _ _ _ _ _ _ HcP Hc) as (cs & Hk & Hf). rewrite HkP in Hk. injection Hk as <- <-.
        eapply child_intro; [exact Hc1 | exact Hk1|]. rewrite (slot_set_other _ _ _ _ b Hset); [exact Hf | congruence].
      + eapply child_ext; [|exact Hc]. rewrite <- Hh. eapply rd_hp_off; eassumption.
  Qed.

  Lemma rd_step_slot : forall n q p b, reach g n q -> child (hp g) n p b O -> child (hp g') n p b X.
  Proof.
    intros n q p b Hr Hc. pose proof (sh_edge_in g s O Q n b W Hs (edge_of_child _ _ _ _ _ _ Hr Hc)) as Es.
    destruct (rd_parent n b Es) as (cP & c1 & pP & csP & csP' & HcP & HkP & HfO & Hc1 & Hk1 & Hset & _).
    destruct (child_inv _ _ _ _ _ _ HcP Hc) as (cs & Hk & Hf). rewrite HkP in Hk. injection Hk as <- <-.
    eapply child_intro; [exact Hc1 | exact Hk1 | eapply slot_set_same; exact Hset].
  Qed.

  Lemma rd_old_cell : forall n c, hp g n = Some c -> h n = Some c -> exists c1, hp g' n = Some c1 /\ kept c c1.
  Proof.
    intros n c Hc Hh. destruct (slot_cases s) as [Es | (P & bP & Es)].
    - exists c. split; [rewrite rd_hp; [exact Hh | congruence] | left; reflexivity].
    - destruct (Nat.eq_dec n P) as [->|Hne].
      + destruct (rd_parent P bP Es) as (cP & c1 & pP & csP & csP' & HcP & HkP & _ & Hc1 & Hk1 & _ & Hw).
        rewrite Hc in HcP. injection HcP as <-. exists c1. split; [exact Hc1|].
        destruct Hw as [-> | Hw]; [left; reflexivity | right].
        pose proof (slot_holds_inv _ _ _ _ Hs) as I. rewrite Es in I. destruct I as (q & _ & HrP & _).
        destruct (wf_alloc g W _ _ HrP) as (c0 & Hc0 & Hf0). rewrite Hc in Hc0. injection Hc0 as <-. eauto 8.
      + exists c. split; [rewrite (rd_hp_off n P bP Es Hne); exact Hh | left; reflexivity].
  Qed.
  End Parent.

  (** Tl lists the nodes the commit changes, moves, kills or allocates: O,
      fresh nodes and children of O.  New says where those of them that are
      in the tree of g' sit: X at Q, the others below X.  Only X has touched
      children; only heir has untouched ones, which it takes over, with their
      bytes and full paths, from touched nodes of g.  FX is the full path of a
      fresh inner node; r' is what a lookup of k gives afterwards.  All of
      this is stated over g and h: g' enters only through Hrd. *)
  Variables (k : key) (Tl : list nid) (New : nid -> list Z -> Prop) (heir : nid) (FX : list Z) (r' : option val).
  Let T (n : nid) : Prop := In n Tl.
  Hypothesis HTO : T O.
  Hypothesis HT : forall t, T t -> t = O \/ hp g t = None \/ exists b, edge g O b t.
  Hypothesis Hframe : forall n, ~ T n -> h n = hp g n.
  Hypothesis New_X : New X Q.
  Hypothesis New_T : forall m q, New m q -> T m.
  Hypothesis New_fun : forall m q1 q2, New m q1 -> New m q2 -> q1 = q2.
  Hypothesis New_up : forall m q, New m q -> (m = X /\ q = Q) \/ exists p b, child h X p b m /\ q = Q ++ p ++ [b].
  Hypothesis top_bwd : forall t q p b m, New t q -> child h t p b m ->
      (t = X /\ New m (q ++ p ++ [b])) \/
      (t = heir /\ ~ T m /\ reach g m (q ++ p ++ [b]) /\ exists t0, T t0 /\ edge g t0 b m).
  Hypothesis top_fwd : forall t q p b m, T t -> reach g t q -> child (hp g) t p b m -> ~ T m ->
      exists qh ph, New heir qh /\ child h heir ph b m /\ qh ++ ph = q ++ p.
  (* what WF, W2 and the leaves of g' need of the cell of a New node *)
  Let new_ok (m : nid) (q : list Z) (c1 : cell) : Prop :=
    w_is_free (word c1) = true /\
    match cont c1 with
    | CLeaf kk v => q = firstn (length q) kk /\ (kk <> k -> leaf_in g kk v)
    | CInode p cs => forall fp, fp_ok g fp -> q ++ p = match hp g m with Some _ => fp m | None => FX end
    end.
  Hypothesis New_cell : forall m q, New m q -> exists c1, h m = Some c1 /\ new_ok m q c1.
  Hypothesis T_old : forall n c, T n -> hp g n = Some c -> exists c', h n = Some c' /\
      ((word c' = 1%Z /\ forall k' v', cont c = CLeaf k' v' -> k' = k) \/
       ((c' = c \/ (word c' = bump (word c) /\ exists p cs, cont c = CInode p cs)) /\ exists q, New n q)).
  Hypothesis Hafter : (forall n, T n -> hp g' n = h n) -> reach g' X Q -> lookup g' k r'.

  Let T_dec : forall n, T n \/ ~ T n.
  Proof. intros n. destruct (in_dec Nat.eq_dec n Tl); auto. Qed.

  Let HPout : forall P bP, s = SChild P bP -> ~ T P.
  Proof.
    intros P bP Es HTP. pose proof Hs as Hs'. rewrite Es in Hs'. pose proof (sh_edge g P bP O Q Hs') as E.
    destruct (HT P HTP) as [-> | [Hf | [b E']]].
    - eapply no_self_edge; eassumption.
    - exact (edge_source_alloc _ _ _ _ E Hf).
    - eapply no_two_cycle; eassumption.
  Qed.

  Let HhP : forall P bP, s = SChild P bP -> h P = hp g P.
  Proof. intros P bP Es. apply Hframe. eapply HPout; exact Es. Qed.

  Lemma dl_hp_T : forall n, T n -> hp g' n = h n.
  Proof. intros n HTn. apply rd_hp. intros bP Es. exact (HPout n bP Es HTn). Qed.

  Lemma dl_child_T : forall n p b m, T n -> child (hp g') n p b m <-> child h n p b m.
  Proof. intros n p b m HTn. pose proof (dl_hp_T n HTn) as E. split; apply child_ext; congruence. Qed.

  Lemma dl_out_child : forall n b m, ~ T n -> edge g n b m -> m <> O -> ~ T m.
  Proof.
    intros n b m Hn E Hne Hm. destruct (HT m Hm) as [-> | [Hf | [b' E']]]; [contradiction | |].
    - exact (edge_target_alloc g n b m W E Hf).
    - destruct (wf_parent g W _ _ _ _ _ E E') as [-> _]. contradiction.
  Qed.

  Lemma dl_out_root : forall n, root g = Some n -> n <> O -> ~ T n.
  Proof.
    intros n Hroot Hne Hm. destruct (HT n Hm) as [-> | [Hf | [b' E']]]; [contradiction | |].
    - exact (reach_alloc g n [] W (reach_root g n Hroot) Hf).
    - eapply (wf_root g W); eassumption.
  Qed.

  Lemma dl_bwd : forall m q, reach g' m q -> (reach g m q /\ ~ T m) \/ New m q.
  Proof.
    apply reach_child_ind.
    - intros n Hroot. destruct (rd_root_new n Hroot) as [(_ & -> & E) | [Hr0 Hne]].
      + right. rewrite <- E. exact New_X.
      + left. split; [apply reach_root; exact Hr0 | apply dl_out_root; assumption].
    - intros n q p b m _ [[Hr0 HnT] | Hn] Hc.
      + destruct (rd_step_bwd HhP n q p b m Hr0 (Hframe n HnT) Hc) as [(-> & E & _) | [Hne Hc0]].
        * right. rewrite E. exact New_X.
        * left. split; [eapply reach_step; eassumption|].
          eapply dl_out_child; [exact HnT | eapply edge_of_child; eassumption | exact Hne].
      + apply (dl_child_T n p b m (New_T n q Hn)) in Hc.
        destruct (top_bwd n q p b m Hn Hc) as [[_ Hm] | (_ & Hm & Hr1 & _)]; auto.
  Qed.

  Lemma dl_new_under : forall m q, New m q -> reach g' X Q -> reach g' m q.
  Proof.
    intros m q Hn RX. destruct (New_up m q Hn) as [[-> ->] | (p & b & Hc & ->)]; [exact RX|].
    eapply reach_step; [exact RX | apply (dl_child_T X p b m (New_T X Q New_X)); exact Hc].
  Qed.

  Lemma dl_fwd : forall m q, reach g m q -> (~ T m -> reach g' m q) /\ (T m -> reach g' X Q).
  Proof.
    apply reach_child_ind.
    - intros n Hroot. split.
      + intros HnT. apply reach_root. apply rd_root_old; [exact Hroot | congruence].
      + intros HTn. destruct (Nat.eq_dec n O) as [->|Hne]; [exact (rd_root_X Hroot)|].
        exfalso. exact (dl_out_root n Hroot Hne HTn).
    - intros n q p b m Hr0 [IH1 IH2] Hc.
      destruct (T_dec n) as [HTn | HnT].
      + specialize (IH2 HTn). split; [intros Hm | intros _; exact IH2].
        destruct (top_fwd n q p b m HTn Hr0 Hc Hm) as (qh & ph & Hh & Hch & E).
        rewrite app_assoc, <- E, <- app_assoc.
        eapply reach_step; [exact (dl_new_under _ _ Hh IH2) | apply (dl_child_T heir ph b m (New_T _ _ Hh)); exact Hch].
      + specialize (IH1 HnT). destruct (Nat.eq_dec m O) as [->|Hne].
        * split; [intros Hm; contradiction | intros _].
          rewrite (reach_unique g O Q _ W (sh_reach g s O Q Hs) (reach_step _ _ _ _ _ _ Hr0 Hc)).
          eapply reach_step; [exact IH1 | eapply rd_step_slot; eassumption].
        * pose proof (dl_out_child n b m HnT (edge_of_child _ _ _ _ _ _ Hr0 Hc) Hne) as HmT.
          split; [intros _ | intros Hm; contradiction].
          eapply reach_step; [exact IH1 | eapply rd_step_fwd; eauto].
  Qed.

  Lemma dl_reach_X : reach g' X Q.
  Proof. exact (proj2 (dl_fwd O Q (sh_reach g s O Q Hs)) HTO). Qed.

  Lemma dl_new : forall m q, New m q -> reach g' m q.
  Proof. intros m q Hn. exact (dl_new_under m q Hn dl_reach_X). Qed.

  Lemma dl_new_cell : forall m q c, New m q -> hp g' m = Some c -> new_ok m q c.
  Proof.
    intros m q c Hn Hc. destruct (New_cell m q Hn) as (c1 & Hc1 & F). rewrite (dl_hp_T m (New_T m q Hn)), Hc1 in Hc.
    injection Hc as <-. exact F.
  Qed.

  Lemma dl_outcell : forall m c, ~ T m -> hp g m = Some c -> exists c1, hp g' m = Some c1 /\ kept c c1.
  Proof. intros m c HnT Hc. apply (rd_old_cell HhP); [exact Hc | rewrite Hframe; assumption]. Qed.

  Lemma dl_edge : forall n b m, edge g' n b m ->
    (~ T n /\ ~ T m /\ edge g n b m) \/ (m = X /\ s = SChild n b) \/
    (exists q p, New n q /\ child h n p b m).
  Proof.
    intros n b m E. apply edge_child in E. destruct E as (q & p & Hr' & Hc).
    destruct (dl_bwd _ _ Hr') as [[Hr0 HnT] | Hn].
    - destruct (rd_step_bwd HhP n q p b m Hr0 (Hframe n HnT) Hc) as [(-> & _ & Es) | [Hne Hc0]]; [right; left; auto | left].
      pose proof (edge_of_child _ _ _ _ _ _ Hr0 Hc0) as E.
      split; [exact HnT | split; [eapply dl_out_child; eassumption | exact E]].
    - right. right. exists q, p. split; [exact Hn | apply (dl_child_T n p b m (New_T n q Hn)); exact Hc].
  Qed.

  Lemma dl_TX : T X.
  Proof. eapply New_T. exact New_X. Qed.

  Lemma dl_not_into_X : forall n q p b, New n q -> child h n p b X -> False.
  Proof.
    intros n q p b Hn Hc. destruct (top_bwd n q p b X Hn Hc) as [[-> HX] | (_ & HnT & _)]; [|exact (HnT dl_TX)].
    rewrite (New_fun X q Q Hn New_X) in HX. pose proof (New_fun X _ _ New_X HX) as E.
    apply app_self_nil in E. destruct p; discriminate.
  Qed.

  Lemma dl_old_new : forall n1 b1 n2 q p b2 m, ~ T n1 -> ~ T m -> edge g n1 b1 m ->
    New n2 q -> child h n2 p b2 m -> False.
  Proof.
    intros n1 b1 n2 q p b2 m Hn1 Hm E Hn2 Hc.
    destruct (top_bwd _ _ _ _ _ Hn2 Hc) as [[_ Hm'] | (_ & _ & _ & t0 & Ht0 & E0)]; [exact (Hm (New_T _ _ Hm'))|].
    destruct (wf_parent g W _ _ _ _ _ E E0) as [-> _]. contradiction.
  Qed.

  Lemma dl_wf_parent : forall n1 b1 n2 b2 m, edge g' n1 b1 m -> edge g' n2 b2 m -> n1 = n2 /\ b1 = b2.
  Proof.
    intros n1 b1 n2 b2 m E1 E2.
    (* [dl_edge] sorts each edge of g' into: an edge of g between untouched
       nodes, the redirected slot (into X), an edge of h out of a New node.
       Like pairs agree by [wf_parent] of g, by the slot being one, by
       [top_bwd] (both parents are X, or both are heir with old edges); unlike
       pairs would make X or an untouched node the child of a New node. *)
    destruct (dl_edge _ _ _ E1) as [(Hn1 & Hm1 & A1) | [[M1 S1] | (q1 & p1 & N1 & C1)]];
      destruct (dl_edge _ _ _ E2) as [(Hn2 & Hm2 & A2) | [[M2 S2] | (q2 & p2 & N2 & C2)]].
    - exact (wf_parent g W _ _ _ _ _ A1 A2).
    - subst m. exfalso. exact (Hm1 dl_TX).
    - exfalso. exact (dl_old_new _ _ _ _ _ _ _ Hn1 Hm1 A1 N2 C2).
    - subst m. exfalso. exact (Hm2 dl_TX).
    - rewrite S1 in S2. injection S2 as -> ->. auto.
    - subst m. exfalso. eapply dl_not_into_X; eassumption.
    - exfalso. exact (dl_old_new _ _ _ _ _ _ _ Hn2 Hm2 A2 N1 C1).
    - subst m. exfalso. eapply dl_not_into_X; eassumption.
    - destruct (top_bwd _ _ _ _ _ N1 C1) as [[-> M1] | (-> & HnT1 & _ & t1 & _ & A1)];
        destruct (top_bwd _ _ _ _ _ N2 C2) as [[-> M2] | (-> & HnT2 & _ & t2 & _ & A2)].
      + split; [reflexivity|]. rewrite (New_fun X q1 q2 N1 N2), (child_fun _ _ _ _ _ _ _ _ C1 C2) in M1.
        pose proof (New_fun m _ _ M1 M2) as E. apply app_inv_head in E. apply app_inv_head in E. congruence.
      + exfalso. exact (HnT2 (New_T _ _ M1)).
      + exfalso. exact (HnT1 (New_T _ _ M2)).
      + split; [reflexivity | exact (proj2 (wf_parent g W _ _ _ _ _ A1 A2))].
  Qed.

  Lemma dl_wf_root : forall x n b, root g' = Some x -> edge g' n b x -> False.
  Proof.
    intros x n b Hroot E.
    assert (Old : ~ T x -> forall t0, edge g t0 b x -> False).
    { intros HnT t0 E0. destruct (rd_root_new x Hroot) as [(_ & -> & _) | [Hr0 _]]; [exact (HnT dl_TX)|].
      eapply (wf_root g W); eassumption. }
    destruct (dl_edge _ _ _ E) as [(_ & Hm & A) | [[-> Es] | (q & p & Hn & Hc)]].
    - eapply Old; eassumption.
    - destruct (rd_root_new X Hroot) as [(Es' & _) | [Hr0 Hne]]; [congruence|].
      exact (dl_out_root X Hr0 Hne dl_TX).
    - destruct (top_bwd _ _ _ _ _ Hn Hc) as [[_ Hm] | (_ & HnT & _ & t0 & _ & E0)]; [|eapply Old; eassumption].
      destruct (rd_root_new x Hroot) as [(_ & -> & _) | [Hr0 Hne]]; [exact (dl_not_into_X _ _ _ _ Hn Hc)|].
      exact (dl_out_root x Hr0 Hne (New_T _ _ Hm)).
  Qed.

  Lemma dl_old : forall m q c1, reach g m q -> ~ T m -> hp g' m = Some c1 ->
    exists c, hp g m = Some c /\ w_is_free (word c) = true /\ kept c c1.
  Proof.
    intros m q c1 Hr0 HnT Hc1. destruct (wf_alloc g W _ _ Hr0) as (c & Hc & Hf).
    destruct (dl_outcell m c HnT Hc) as (c1' & Hc1' & K). rewrite Hc1 in Hc1'. injection Hc1' as <-. eauto.
  Qed.

  Lemma dl_WF : WF g'.
  Proof.
    constructor; [| | exact dl_wf_parent | exact dl_wf_root].
    - intros n q Hr'. destruct (dl_bwd _ _ Hr') as [[Hr0 HnT] | Hn].
      + destruct (wf_alloc g W _ _ Hr0) as (c & Hc & Hf). destruct (dl_outcell n c HnT Hc) as (c1 & Hc1 & K).
        exists c1. split; [exact Hc1 | exact (kept_free _ _ K Hf)].
      + destruct (New_cell _ _ Hn) as (c1 & Hc1 & Hf & _). rewrite <- (dl_hp_T n (New_T n q Hn)) in Hc1. eauto.
    - intros n q c1 kk v Hr' Hc1 Hk. destruct (dl_bwd _ _ Hr') as [[Hr0 HnT] | Hn].
      + destruct (dl_old n q c1 Hr0 HnT Hc1) as (c & Hc & _ & K).
        rewrite (kept_leaf _ _ _ _ K (or_intror Hk)) in Hk. eapply (wf_leaf g W); eassumption.
      + destruct (dl_new_cell n q c1 Hn Hc1) as [_ Hl]. rewrite Hk in Hl. apply Hl.
  Qed.

  Lemma dl_T_reach : forall n c, T n -> hp g n = Some c -> exists q, reach g n q.
  Proof.
    intros n c HTn Hc. destruct (HT n HTn) as [-> | [Hf | [b E]]].
    - eexists. exact (sh_reach g s O Q Hs).
    - congruence.
    - exact (edge_reach _ _ _ _ E).
  Qed.

  Lemma dl_cell_step : cell_step g g'.
  Proof.
    intros n c Hc. destruct (T_dec n) as [HTn | HnT].
    - destruct (T_old n c HTn Hc) as (c' & Hc' & D). rewrite <- (dl_hp_T n HTn) in Hc'. exists c'. split; [exact Hc'|].
      destruct (dl_T_reach n c HTn Hc) as [q Hr0]. destruct (wf_alloc g W _ _ Hr0) as (c0 & Hc0 & Hf0).
      rewrite Hc in Hc0. injection Hc0 as <-.
      destruct D as [[E _] | [[-> | [E _]] _]]; [right; auto | left; reflexivity | right; auto].
    - destruct (dl_outcell n c HnT Hc) as (c1 & Hc1 & K). exists c1. split; [exact Hc1|].
      destruct K as [E | (Hf & E & _)]; auto.
  Qed.

  Lemma dl_w1 : w1_step g g'.
  Proof.
    intros n q Hr0 Hno. destruct (T_dec n) as [HTn | HnT]; [|exists q; exact (proj1 (dl_fwd n q Hr0) HnT)].
    destruct (wf_alloc g W _ _ Hr0) as (c & Hc & _).
    destruct (T_old n c HTn Hc) as (c' & Hc' & [[E _] | [_ [q' Hn]]]).
    - rewrite <- (dl_hp_T n HTn) in Hc'. specialize (Hno c' Hc'). rewrite E in Hno. discriminate.
    - exists q'. exact (dl_new _ _ Hn).
  Qed.

  Lemma dl_w2 : w2_step g g'.
  Proof.
    intros fp Hfp. exists (fun n => match hp g n with Some _ => fp n | None => FX end). split.
    - intros n q c1 p cs Hr' Hc1 Hk. destruct (dl_bwd _ _ Hr') as [[Hr0 HnT] | Hn].
      + destruct (dl_old n q c1 Hr0 HnT Hc1) as (c & Hc & _ & K). rewrite Hc.
        destruct (kept_inode _ _ _ _ K Hk) as [cs0 Hk0]. eapply Hfp; eassumption.
      + destruct (dl_new_cell n q c1 Hn Hc1) as [_ Hl]. rewrite Hk in Hl. exact (Hl fp Hfp).
    - intros n c Hc. rewrite Hc. reflexivity.
  Qed.

  Lemma dl_leaves : forall k' v', k' <> k -> (leaf_in g' k' v' <-> leaf_in g k' v').
  Proof.
    intros k' v' Hne. split; intros (n & q & c & Hr & Hc & Hk).
    - destruct (dl_bwd _ _ Hr) as [[Hr0 HnT] | Hn].
      + destruct (dl_old n q c Hr0 HnT Hc) as (c0 & Hc0 & _ & K).
        rewrite (kept_leaf _ _ _ _ K (or_intror Hk)) in Hk. exists n, q, c0. auto.
      + destruct (dl_new_cell n q c Hn Hc) as [_ Hl]. rewrite Hk in Hl. apply Hl. exact Hne.
    - destruct (T_dec n) as [HTn | HnT].
      + destruct (T_old n c HTn Hc) as (c' & Hc' & [[_ E] | [[-> | (_ & p & cs & E)] [q' Hn]]]).
        * elim Hne. eapply E. exact Hk.
        * exists n, q', c. rewrite (dl_hp_T n HTn). auto using dl_new.
        * congruence.
      + destruct (dl_outcell n c HnT Hc) as (c1 & Hc1 & K). rewrite (kept_leaf _ _ _ _ K (or_introl Hk)) in Hc1.
        exists n, q, c. split; [exact (proj1 (dl_fwd n q Hr) HnT) | auto].
  Qed.

  Lemma delta_ok : step_ok g g' /\
    forall k' x, lookup g' k' x <-> if key_eq_dec k' k then x = r' else lookup g k' x.
  Proof.
    pose proof dl_WF as W'. split.
    - split; [exact W' | split; [exact dl_cell_step | split; [exact rd_root_step | split; [exact dl_w1 | exact dl_w2]]]].
    - apply effect_intro; [exact W | exact W' | exact (Hafter dl_hp_T dl_reach_X) | exact dl_leaves].
  Qed.

  Lemma delta_insert : forall v, r' = Some v -> lookup g k None -> step_ok g g' /\ insert_effect k v g g'.
  Proof. intros v E' H0. destruct delta_ok as [S E]. rewrite E' in E. split; [exact S | split; assumption]. Qed.

  Lemma delta_remove : forall v, r' = None -> lookup g k (Some v) -> step_ok g g' /\ remove_effect k g g'.
  Proof. intros v E' H0. destruct delta_ok as [S E]. rewrite E' in E. split; [exact S | split; [eauto | exact E]]. Qed.
End Redirect.

(** Each shape below applies [delta_ok] or one of its two corollaries; the
    bullets discharge the hypotheses of the section in the order of their
    declaration: HTO, HT, Hframe, New_X, New_T, New_fun, New_up, top_bwd,
    top_fwd, New_cell, T_old, Hafter. *)

(** S1, S2, S5 together: inner node N on the path of k has its slot for the
    next byte b of k changed to o (the fresh leaf L for k goes in, or the leaf
    L for k is taken out and dies).  The new version of N is written to X: N
    itself, or a fresh copy to which the slot holding N is redirected, N dying. *)
Section SlotChange.
  Variables (g : gstate) (k : key) (N : nid) (d : nat) (cN : cell) (p : list Z)
            (cs : list (Z * nid)) (b : Z) (o : option nid) (cs' : list (Z * nid))
            (L : nid) (v : val) (cl : cell).
  Hypothesis W : WF g.
  Hypothesis HA : at_inode g k N d cN p cs b.
  Hypothesis Hcs' : slot_set cs b o cs'.
  Hypothesis HL :
    (find_child b cs = None /\ o = Some L /\ hp g L = None /\
     exists wl, w_is_free wl = true /\ cl = mk wl (CLeaf k v)) \/
    (find_child b cs = Some L /\ o = None /\
     exists cL, hp g L = Some cL /\ cont cL = CLeaf k v /\ cl = mk 1 (cont cL)).

  Section Target.
  Variables (s : slot) (X : nid) (wX : Z) (h : heap) (g' : gstate).
  Hypothesis Hs : slot_holds g s N (firstn d k).
  Hypothesis HwX : w_is_free wX = true.
  Hypothesis HXL : X <> L.
  Hypothesis hX : h X = Some (mk wX (CInode p cs')).
  Hypothesis hL : h L = Some cl.
  Hypothesis Hfr : forall n, n <> N -> n <> X -> n <> L -> h n = hp g n.
  Hypothesis HX : (X = N /\ wX = bump (word cN)) \/ (hp g X = None /\ h N = Some (mk 1 (cont cN))).
  Hypothesis Hrd : redir g s N h X g'.

  Theorem slot_change_ok : step_ok g g' /\
    match o with Some _ => insert_effect k v g g' | None => remove_effect k g g' end.
  Proof.
    pose proof HA as (HrN & Hd & HcN & HkN & Hp & Hb). set (Q := firstn d k) in *.
    set (r' := match o with Some _ => Some v | None => None end).
    enough (step_ok g g' /\ forall k' x, lookup g' k' x <-> if key_eq_dec k' k then x = r' else lookup g k' x) as [S E].
    { split; [exact S|]. unfold r' in E.
      destruct HL as [(Hf & -> & _) | (Hf & -> & cL & HcL & HkL & _)]; (split; [|exact E]); [|exists v];
        eapply at_inode_lookup; try exact HA; rewrite Hf; eauto. }
    assert (Old : forall b0 m, find_child b0 cs = Some m -> b0 <> b ->
              edge g N b0 m /\ reach g m (Q ++ p ++ [b0]) /\ ~ In m [N; X; L]).
    { intros b0 m Hf Hb0. assert (C0 : child (hp g) N p b0 m) by (eapply child_intro; eassumption).
      pose proof (edge_of_child _ _ _ _ _ _ HrN C0) as E.
      split; [exact E | split; [eapply reach_step; eassumption|]].
      assert (NN : m <> N) by (intros ->; eapply no_self_edge; eassumption).
      intros [<- | [<- | [<- | []]]]; [congruence | |].
      - destruct HX as [[E' _] | [HfX _]]; [congruence | exact (edge_target_alloc g _ _ _ W E HfX)].
      - destruct HL as [(_ & _ & HfL & _) | (Hf' & _)]; [exact (edge_target_alloc g _ _ _ W E HfL)|].
        destruct (wf_parent g W _ _ _ _ _ E (edge_intro g N Q cN p cs b L HrN HcN HkN Hf')). contradiction. }
    apply (delta_ok g s N Q h X g' W Hs Hrd k [N; X; L]
             (fun m q => (m = X /\ q = Q) \/ (o = Some m /\ q = Q ++ p ++ [b])) X (Q ++ p) r').
    - left; reflexivity.
    - intros t [<- | [<- | [<- | []]]]; [auto | destruct HX as [[-> _] | [HfX _]]; auto |].
      destruct HL as [(_ & _ & HfL & _) | (Hf & _)]; [auto | right; right; exists b; eapply edge_intro; eassumption].
    - intros n Hn. apply Hfr; intros ->; apply Hn; cbn; auto.
    - auto.
    - intros m q [[-> _] | [E _]]; [cbn; auto|].
      destruct HL as [(_ & Eo & _) | (_ & Eo & _)]; rewrite Eo in E; [injection E as <-; cbn; auto | discriminate].
    - intros m q1 q2 [[-> ->] | [E1 ->]] [[E2 ->] | [E2 ->]]; try reflexivity; exfalso;
        (destruct HL as [(_ & Eo & _) | (_ & Eo & _)]; congruence).
    - intros m q [[-> ->] | [E ->]]; [auto | right; exists p, b; split; [|reflexivity]].
      eapply child_intro; [exact hX | reflexivity | rewrite <- E; exact (slot_set_same _ _ _ _ Hcs')].
    - (* top_bwd *) intros t q p0 b0 m [[-> ->] | [E ->]] Hc.
      + destruct (child_inv _ _ _ _ _ _ hX Hc) as (cs0 & Hk & Hf). cbn in Hk. injection Hk as <- <-.
        destruct (slot_set_inv _ _ _ _ _ _ Hcs' Hf) as [[-> Eo] | [Hb0 Hf0]]; [auto | right].
        destruct (Old b0 m Hf0 Hb0) as (E & Hr & HnT). split; [reflexivity | split; [exact HnT | split; [exact Hr|]]].
        exists N. cbn; auto.
      + destruct HL as [(_ & Eo & _ & wl & _ & ->) | (_ & Eo & _)]; rewrite Eo in E; [injection E as <- | discriminate].
        destruct (child_inv _ _ _ _ _ _ hL Hc) as (cs0 & Hk & _). discriminate.
    - (* top_fwd *) intros t q p0 b0 m Ht Hr Hc HnT.
      assert (t = N) as ->.
      { destruct Ht as [<- | [<- | [<- | []]]]; [reflexivity | |].
        - destruct HX as [[E _] | [HfX _]]; [exact E | destruct Hc as (c & _ & Hc & _); congruence].
        - exfalso. destruct HL as [(_ & _ & HfL & _) | (_ & _ & cL & HcL & HkL & _)].
          + destruct Hc as (c & _ & Hc & _). congruence.
          + destruct (child_inv _ _ _ _ _ _ HcL Hc) as (cs0 & Hk & _). congruence. }
      rewrite (reach_unique g N q Q W Hr HrN).
      destruct (child_inv _ _ _ _ _ _ HcN Hc) as (cs0 & Hk & Hf). rewrite HkN in Hk. injection Hk as <- <-.
      exists Q, p. split; [auto | split; [|reflexivity]]. eapply child_intro; [exact hX | reflexivity |].
      rewrite (slot_set_other _ _ _ _ b0 Hcs'); [exact Hf|]. intros ->. apply HnT.
      destruct HL as [(Hf' & _) | (Hf' & _)]; rewrite Hf' in Hf; [discriminate | injection Hf as <-; cbn; auto].
    - (* New_cell *) intros m q [[-> ->] | [E ->]].
      + eexists. split; [exact hX | split; [exact HwX|]]. cbn. intros fp Hfp.
        destruct HX as [[-> _] | [HfX _]]; [rewrite HcN; eapply Hfp; eassumption | rewrite HfX; reflexivity].
      + destruct HL as [(_ & Eo & _ & wl & Hwl & ->) | (_ & Eo & _)]; rewrite Eo in E; [injection E as <- | discriminate].
        eexists. split; [exact hL | split; [exact Hwl|]]. cbn. split; [apply path_extend_self; assumption | congruence].
    - (* T_old *) intros n c Hn Hc.
      assert (D : n = N \/ n = L).
      { destruct Hn as [<- | [<- | [<- | []]]]; auto. destruct HX as [[E _] | [HfX _]]; [auto | congruence]. }
      destruct D as [-> | ->].
      + rewrite HcN in Hc. injection Hc as <-. destruct HX as [[E Ew] | [_ HN]].
        * exists (mk wX (CInode p cs')). rewrite <- E at 1. split; [exact hX | right].
          split; [right; eauto | exists Q; left; split; congruence].
        * eexists. split; [exact HN | left]. split; [reflexivity | congruence].
      + destruct HL as [(_ & _ & HfL & _) | (_ & _ & cL & HcL & HkL & ->)]; [congruence|].
        eexists. split; [exact hL | left]. split; [reflexivity | congruence].
    - intros HT' RX. rewrite <- (HT' X) in hX by (cbn; auto).
      eapply (at_inode_lookup g' k X d _ p cs' b _ (conj RX (conj Hd (conj hX (conj eq_refl (conj Hp Hb)))))).
      rewrite (slot_set_same _ _ _ _ Hcs').
      destruct HL as [(_ & -> & _ & wl & _ & Ecl) | (_ & -> & _)]; [|reflexivity].
      exists cl, v. rewrite HT' by (cbn; auto). subst cl. auto.
  Qed.
  End Target.

  Let HNL : N <> L.
  Proof.
    destruct HA as (_ & _ & HcN & HkN & _).
    destruct HL as [(_ & _ & HfL & _) | (_ & _ & cL & HcL & HkL & _)]; congruence.
  Qed.

  Lemma slot_change_inplace : forall g',
    g' = set_hp g (upd (upd (hp g) L cl) N (mk (bump (word cN)) (CInode p cs'))) ->
    step_ok g g' /\ match o with Some _ => insert_effect k v g g' | None => remove_effect k g g' end.
  Proof.
    intros g' Eg. pose proof HA as (HrN & _ & HcN & _).
    destruct (reach_slot_holds g N _ HrN) as [s Hs]. destruct (wf_alloc g W _ _ HrN) as (c0 & Hc0 & Hf0).
    apply (slot_change_ok s N (bump (word cN)) (upd (upd (hp g) L cl) N (mk (bump (word cN)) (CInode p cs'))) g' Hs).
    - apply bump_free. congruence.
    - exact HNL.
    - apply upd_eq.
    - rewrite upd_neq by congruence. apply upd_eq.
    - intros n H1 _ H2. rewrite !upd_neq by assumption. reflexivity.
    - auto.
    - right. auto.
  Qed.

  Lemma slot_change_copy : forall s N' wn h g', slot_holds g s N (firstn d k) ->
    hp g N' = None -> w_is_free wn = true -> N' <> L ->
    h = upd (upd (upd (hp g) L cl) N' (mk wn (CInode p cs'))) N (mk 1 (cont cN)) -> slot_redirect g s h N' g' ->
    step_ok g g' /\ match o with Some _ => insert_effect k v g g' | None => remove_effect k g g' end.
  Proof.
    intros s N' wn h g' Hs HN' Hwn HN'L Eh Hrd. pose proof HA as (_ & _ & HcN & _).
    apply (slot_change_ok s N' wn h g' Hs Hwn HN'L); subst h.
    - rewrite upd_neq by congruence. apply upd_eq.
    - rewrite !upd_neq by congruence. apply upd_eq.
    - intros n H1 H2 H3. rewrite !upd_neq by assumption. reflexivity.
    - right. split; [exact HN' | apply upd_eq].
    - left. exact Hrd.
  Qed.
End SlotChange.

Theorem add_leaf_ok : forall k v g g', WF g -> add_leaf k v g g' -> step_ok g g' /\ insert_effect k v g g'.
Proof.
  intros k v g g' W [N d cN p cs b L wl cs' HA Hnone HL Hwl Hcs' Eg].
  apply (slot_change_inplace g k N d cN p cs b (Some L) cs' L v (mk wl (CLeaf k v)) W HA Hcs'); [left; eauto 10 | exact Eg].
Qed.

Theorem remove_leaf_ok : forall k g g', WF g -> remove_leaf k g g' -> step_ok g g' /\ remove_effect k g g'.
Proof.
  intros k g g' W [N d cN p cs b L cL v cs' HA Hsome HcL HkL Hcs' Eg].
  apply (slot_change_inplace g k N d cN p cs b None cs' L v (mk 1 (cont cL)) W HA Hcs'); [right; eauto 10 | exact Eg].
Qed.

Theorem replace_ins_ok : forall k v g g', WF g -> replace_ins k v g g' -> step_ok g g' /\ insert_effect k v g g'.
Proof.
  intros k v g g' W [s N d cN p cs b N' wn cs' L wl h HA Hnone HN' HL HNL Hwn Hwl Hcs' Eh Hrd].
  apply (slot_change_copy g k N d cN p cs b (Some L) cs' L v (mk wl (CLeaf k v)) W (at_slot_at_inode _ _ _ _ _ _ _ _ _ HA) Hcs')
    with (s := s) (N' := N') (wn := wn) (h := h); [left; eauto 10 | apply HA | assumption ..].
Qed.

Theorem replace_rem_ok : forall k g g', WF g -> replace_rem k g g' -> step_ok g g' /\ remove_effect k g g'.
Proof.
  intros k g g' W [s N d cN p cs b N' wn cs' L cL v h HA Hsome HcL HkL HN' Hwn Hcs' Eh Hrd].
  apply (slot_change_copy g k N d cN p cs b None cs' L v (mk 1 (cont cL)) W (at_slot_at_inode _ _ _ _ _ _ _ _ _ HA) Hcs')
    with (s := s) (N' := N') (wn := wn) (h := h); [right; eauto 10 | apply HA | assumption | assumption | congruence | assumption ..].
Qed.

Theorem leaf_split_ok : forall k v g g', WF g -> leaf_split k v g g' -> step_ok g g' /\ insert_effect k v g g'.
Proof.
  intros k v g g' W [s L0 d cL kL vL X wx px csX bl bk Lk wl h Hs Hd HcL HkL Hpk HpL Hbk Hbl Hne HcsX HX HLk HXL Hwx Hwl Eh Hrd].
  set (Q := firstn d k) in *.
  pose proof (sh_reach g s L0 Q Hs) as HrL.
  destruct (two_children_inv _ _ _ _ _ HcsX) as (Fk & Fl & Finv).
  assert (hX : h X = Some (mk wx (CInode px csX))) by (subst h; apply upd_eq).
  assert (hLk : h Lk = Some (mk wl (CLeaf k v))) by (subst h; rewrite upd_neq by congruence; apply upd_eq).
  assert (hL0 : h L0 = Some cL) by (subst h; rewrite !upd_neq by congruence; exact HcL).
  assert (EQ : Q = firstn d kL).
  { pose proof (wf_leaf g W _ _ _ _ _ HrL HcL HkL) as E. unfold Q in E at 2. rewrite firstn_length_le in E by exact Hd. exact E. }
  eapply (delta_insert g s L0 Q h X g' W Hs (or_introl Hrd) k [L0; X; Lk]
            (fun m q => (m = X /\ q = Q) \/ (m = L0 /\ q = Q ++ px ++ [bl]) \/ (m = Lk /\ q = Q ++ px ++ [bk]))
            X (Q ++ px) (Some v)).
  - left; reflexivity.
  - intros t [<- | [<- | [<- | []]]]; auto.
  - intros n Hn. subst h. rewrite !upd_neq; [reflexivity | intros ->; apply Hn; cbn; auto ..].
  - auto.
  - intros m q [[-> _] | [[-> _] | [-> _]]]; cbn; auto.
  - intros m q1 q2 [[-> ->] | [[-> ->] | [-> ->]]] [[E ->] | [[E ->] | [E ->]]]; congruence.
  - intros m q [[-> ->] | [[-> ->] | [-> ->]]]; [auto | right; exists px, bl | right; exists px, bk];
      (split; [eapply child_intro; [exact hX | reflexivity | auto] | reflexivity]).
  - (* top_bwd *) intros t q p0 b0 m [[-> ->] | [[-> ->] | [-> ->]]] Hc.
    + destruct (child_inv _ _ _ _ _ _ hX Hc) as (cs0 & Hk & Hf). cbn in Hk. injection Hk as <- <-.
      left. destruct (Finv _ _ Hf) as [[-> ->] | [-> ->]]; auto.
    + destruct (child_inv _ _ _ _ _ _ hL0 Hc) as (cs0 & Hk & _). congruence.
    + destruct (child_inv _ _ _ _ _ _ hLk Hc) as (cs0 & Hk & _). discriminate.
  - (* top_fwd *) intros t q p0 b0 m Ht Hr Hc HnT. exfalso. destruct Ht as [<- | [<- | [<- | []]]].
    + destruct (child_inv _ _ _ _ _ _ HcL Hc) as (cs0 & Hk & _). congruence.
    + destruct Hc as (c & _ & Hc & _). congruence.
    + destruct Hc as (c & _ & Hc & _). congruence.
  - (* New_cell *) intros m q [[-> ->] | [[-> ->] | [-> ->]]].
    + eexists. split; [exact hX | split; [exact Hwx|]]. cbn. intros fp _. rewrite HX. reflexivity.
    + exists cL. split; [exact hL0 | split].
      * destruct (wf_alloc g W _ _ HrL) as (c0 & Hc0 & Hf0). congruence.
      * rewrite HkL. split; [rewrite EQ; apply path_extend_self; assumption | intros _; exists L0, Q, cL; auto].
    + eexists. split; [exact hLk | split; [exact Hwl|]]. cbn. split; [apply path_extend_self; assumption | congruence].
  - (* T_old *) intros n c [<- | [<- | [<- | []]]] Hc; [|congruence ..].
    exists cL. split; [exact hL0 | right]. split; [left; congruence | eauto].
  - intros HT' RX. rewrite <- (HT' X) in hX by (cbn; auto).
    eapply (at_inode_lookup g' k X d _ px csX bk (Some v) (conj RX (conj Hd (conj hX (conj eq_refl (conj Hpk Hbk)))))).
    rewrite Fk. exists (mk wl (CLeaf k v)), v. rewrite HT' by (cbn; auto). auto.
  - reflexivity.
  - apply (reach_lookup g k L0 Q HrL d eq_refl Hd). eapply lr_leaf_miss; [exact HcL | exact HkL | congruence].
Qed.

Theorem prefix_split_ok : forall k v g g', WF g -> prefix_split k v g g' -> step_ok g g' /\ insert_effect k v g g'.
Proof.
  intros k v g g' W [s N d cN p1 bn p2 cs bk X wx csX Lk wl h Hs Hd HcN HkN Hp1 Hbk Hne HcsX HX HLk HXL Hwx Hwl Eh Hrd].
  set (Q := firstn d k) in *.
  pose proof (sh_reach g s N Q Hs) as HrN.
  destruct (two_children_inv _ _ _ _ _ HcsX) as (Fk & Fn & Finv).
  assert (hN : h N = Some (mk (bump (word cN)) (CInode p2 cs))) by (subst h; apply upd_eq).
  assert (hX : h X = Some (mk wx (CInode p1 csX))) by (subst h; rewrite upd_neq by congruence; apply upd_eq).
  assert (hLk : h Lk = Some (mk wl (CLeaf k v))) by (subst h; rewrite !upd_neq by congruence; apply upd_eq).
  assert (EP : forall q : list Z, (q ++ p1 ++ [bn]) ++ p2 = q ++ p1 ++ bn :: p2)
    by (intros q; rewrite <- !app_assoc; reflexivity).
  eapply (delta_insert g s N Q h X g' W Hs (or_introl Hrd) k [N; X; Lk]
            (fun m q => (m = X /\ q = Q) \/ (m = N /\ q = Q ++ p1 ++ [bn]) \/ (m = Lk /\ q = Q ++ p1 ++ [bk]))
            N (Q ++ p1) (Some v)).
  - left; reflexivity.
  - intros t [<- | [<- | [<- | []]]]; auto.
  - intros n Hn. subst h. rewrite !upd_neq; [reflexivity | intros ->; apply Hn; cbn; auto ..].
  - auto.
  - intros m q [[-> _] | [[-> _] | [-> _]]]; cbn; auto.
  - intros m q1 q2 [[-> ->] | [[-> ->] | [-> ->]]] [[E ->] | [[E ->] | [E ->]]]; congruence.
  - intros m q [[-> ->] | [[-> ->] | [-> ->]]]; [auto | right; exists p1, bn | right; exists p1, bk];
      (split; [eapply child_intro; [exact hX | reflexivity | auto] | reflexivity]).
  - (* top_bwd *) intros t q p0 b0 m [[-> ->] | [[-> ->] | [-> ->]]] Hc.
    + destruct (child_inv _ _ _ _ _ _ hX Hc) as (cs0 & Hk & Hf). cbn in Hk. injection Hk as <- <-.
      left. destruct (Finv _ _ Hf) as [[-> ->] | [-> ->]]; auto.
    + destruct (child_inv _ _ _ _ _ _ hN Hc) as (cs0 & Hk & Hf). cbn in Hk. injection Hk as <- <-.
      assert (C0 : child (hp g) N (p1 ++ bn :: p2) b0 m) by (eapply child_intro; eassumption).
      pose proof (edge_of_child _ _ _ _ _ _ HrN C0) as E.
      right. split; [reflexivity | split; [| split; [| exists N; cbn; auto]]].
      * intros [<- | [<- | [<- | []]]].
        -- eapply no_self_edge; eassumption.
        -- exact (edge_target_alloc g _ _ _ W E HX).
        -- exact (edge_target_alloc g _ _ _ W E HLk).
      * rewrite app_assoc, EP, <- app_assoc. eapply reach_step; eassumption.
    + destruct (child_inv _ _ _ _ _ _ hLk Hc) as (cs0 & Hk & _). discriminate.
  - (* top_fwd *) intros t q p0 b0 m Ht Hr Hc HnT. destruct Ht as [<- | [<- | [<- | []]]].
    + rewrite (reach_unique g N q Q W Hr HrN).
      destruct (child_inv _ _ _ _ _ _ HcN Hc) as (cs0 & Hk & Hf). rewrite HkN in Hk. injection Hk as <- <-.
      exists (Q ++ p1 ++ [bn]), p2. split; [auto | split; [eapply child_intro; [exact hN | reflexivity | exact Hf] | apply EP]].
    + destruct Hc as (c & _ & Hc & _). congruence.
    + destruct Hc as (c & _ & Hc & _). congruence.
  - (* New_cell *) intros m q [[-> ->] | [[-> ->] | [-> ->]]].
    + eexists. split; [exact hX | split; [exact Hwx|]]. cbn. intros fp _. rewrite HX. reflexivity.
    + eexists. split; [exact hN | split]; cbn.
      * apply bump_free. destruct (wf_alloc g W _ _ HrN) as (c0 & Hc0 & Hf0). congruence.
      * intros fp Hfp. rewrite HcN, EP. eapply Hfp; eassumption.
    + eexists. split; [exact hLk | split; [exact Hwl|]]. cbn. split; [apply path_extend_self; assumption | congruence].
  - (* T_old *) intros n c [<- | [<- | [<- | []]]] Hc; [|congruence ..].
    eexists. split; [exact hN | right]. rewrite HcN in Hc. injection Hc as <-. split; [right; eauto | eauto].
  - intros HT' RX. rewrite <- (HT' X) in hX by (cbn; auto).
    eapply (at_inode_lookup g' k X d _ p1 csX bk (Some v) (conj RX (conj Hd (conj hX (conj eq_refl (conj Hp1 Hbk)))))).
    rewrite Fk. exists (mk wl (CLeaf k v)), v. rewrite HT' by (cbn; auto). auto.
  - reflexivity.
  - apply (reach_lookup g k N Q HrN d eq_refl Hd). eapply lr_prefix_miss; [exact HcN | exact HkN |].
    intros Hp. pose proof (prefix_at_nth d k p1 bn p2 Hp). congruence.
Qed.

Theorem collapse_ok : forall k g g', WF g -> collapse k g g' -> step_ok g g' /\ remove_effect k g g'.
Proof.
  intros k g g' W [s N d cN p cs b L cL v bc C cC cC' h HA0 Hcs Hne HcL HkL HcC HC Eh Hrd].
  pose proof (at_slot_at_inode _ _ _ _ _ _ _ _ _ HA0) as HA. destruct HA0 as [Hs _].
  pose proof HA as (HrN & Hd & HcN & HkN & Hp & Hb). set (Q := firstn d k) in *.
  destruct (two_children_inv _ _ _ _ _ Hcs) as (Fl & Fc & Finv). specialize (Fc Hne).
  assert (CL : child (hp g) N p b L) by (eapply child_intro; eassumption).
  assert (CC : child (hp g) N p bc C) by (eapply child_intro; eassumption).
  pose proof (edge_of_child _ _ _ _ _ _ HrN CL) as EL. pose proof (edge_of_child _ _ _ _ _ _ HrN CC) as EC.
  pose proof (reach_step _ _ _ _ _ _ HrN CC) as HrC.
  assert (CN : C <> N) by (intros E; rewrite E in EC; exact (no_self_edge g N bc W EC)).
  assert (LC : L <> C) by (intros E; rewrite E in EL; destruct (wf_parent g W _ _ _ _ _ EL EC); congruence).
  assert (hC : h C = Some cC') by (subst h; apply upd_eq).
  assert (FC : w_is_free (word cC) = true) by (destruct (wf_alloc g W _ _ HrC) as (c0 & Hc0 & Hf0); congruence).
  assert (EP : forall (q pc : list Z), (q ++ p ++ [bc]) ++ pc = q ++ p ++ bc :: pc)
    by (intros q pc; rewrite <- !app_assoc; reflexivity).
  eapply (delta_remove g s N Q h C g' W Hs (or_introl Hrd) k [N; L; C] (fun m q => m = C /\ q = Q) C [] None).
  - left; reflexivity.
  - intros t [<- | [<- | [<- | []]]]; eauto.
  - intros n Hn. subst h. rewrite !upd_neq; [reflexivity | intros ->; apply Hn; cbn; auto ..].
  - auto.
  - intros m q [-> _]. cbn; auto.
  - intros m q1 q2 [_ ->] [_ ->]. reflexivity.
  - intros m q [-> ->]. auto.
  - (* top_bwd *) intros t q p0 b0 m [-> ->] Hc. right.
    destruct (child_inv _ _ _ _ _ _ hC Hc) as (cs0 & Hk & Hf).
    destruct HC as [(kc & vc & HkC & ->) | (pc & csC & HkC & ->)]; [congruence|]. cbn in Hk. injection Hk as <- <-.
    assert (C0 : child (hp g) C pc b0 m) by (eapply child_intro; eassumption).
    pose proof (edge_of_child _ _ _ _ _ _ HrC C0) as E.
    split; [reflexivity | split; [| split; [| exists C; cbn; auto]]].
    + intros [<- | [<- | [<- | []]]].
      * eapply no_two_cycle; eassumption.
      * destruct (wf_parent g W _ _ _ _ _ E EL) as [E' _]. contradiction.
      * eapply no_self_edge; eassumption.
    + rewrite app_assoc, <- EP, <- app_assoc. eapply reach_step; eassumption.
  - (* top_fwd *) intros t q p0 b0 m Ht Hr Hc HnT. destruct Ht as [<- | [<- | [<- | []]]].
    + destruct (child_inv _ _ _ _ _ _ HcN Hc) as (cs0 & Hk & Hf). rewrite HkN in Hk. injection Hk as <- <-.
      exfalso. apply HnT. destruct (Finv _ _ Hf) as [[_ ->] | [_ ->]]; cbn; auto.
    + destruct (child_inv _ _ _ _ _ _ HcL Hc) as (cs0 & Hk & _). congruence.
    + rewrite (reach_unique g C q _ W Hr HrC).
      destruct (child_inv _ _ _ _ _ _ HcC Hc) as (cs0 & Hk & Hf).
      destruct HC as [(kc & vc & HkC & EC') | (pc & csC & HkC & EC')]; [congruence|].
      rewrite HkC in Hk. injection Hk as <- <-. exists Q, (p ++ bc :: pc).
      split; [auto | split; [eapply child_intro; [exact hC | rewrite EC'; reflexivity | exact Hf] | symmetry; apply EP]].
  - (* New_cell *) intros m q [-> ->]. exists cC'. split; [exact hC|].
    destruct HC as [(kc & vc & HkC & ->) | (pc & csC & HkC & ->)].
    + split; [exact FC|]. rewrite HkC. split; [|intros _; exists C, (Q ++ p ++ [bc]), cC; auto].
      eapply firstn_app_prefix. exact (wf_leaf g W _ _ _ _ _ HrC HcC HkC).
    + split; [apply bump_free; exact FC|]. cbn. intros fp Hfp. rewrite HcC, <- EP. eapply Hfp; eassumption.
  - (* T_old *) intros n c [<- | [<- | [<- | []]]] Hc.
    + exists (mk 1 (cont cN)). split; [subst h; rewrite upd_neq by congruence; apply upd_eq|]. left. split; [reflexivity|]. congruence.
    + exists (mk 1 (cont cL)). split; [subst h; rewrite !upd_neq by congruence; apply upd_eq|]. left. split; [reflexivity|]. congruence.
    + exists cC'. split; [exact hC | right]. rewrite HcC in Hc. injection Hc as <-. split; [|eauto].
      destruct HC as [(kc & vc & HkC & ->) | (pc & csC & HkC & ->)]; [left; reflexivity | right; eauto].
  - intros HT' RX. apply (reach_lookup g' k C Q RX d eq_refl Hd). rewrite <- (HT' C) in hC by (cbn; auto).
    destruct HC as [(kc & vc & HkC & ->) | (pc & csC & HkC & ->)].
    + eapply lr_leaf_miss; [exact hC | exact HkC |]. intros ->.
      pose proof (wf_leaf g W _ _ _ _ _ HrC HcC HkC) as E. pose proof (path_extend_self d k p b Hp Hb) as E'.
      fold Q in E'. rewrite !app_length in E, E'. cbn [length] in E, E'. rewrite <- E' in E.
      apply app_inv_head in E. apply app_inv_head in E. congruence.
    + eapply lr_prefix_miss; [exact hC | reflexivity |]. intros Hp'.
      pose proof (prefix_at_nth d k p bc pc Hp'). congruence.
  - reflexivity.
  - eapply (at_inode_lookup g k N d cN p cs b _ HA). rewrite Fl. eauto.
Qed.
