(** C01b — tie of the sequential ART model's key prefixes to the source.

    The model (Art/ArtModel.v) keeps the compressed path of an inner node as a
    byte list [p] in [Inode c p ch] and computes on it with [shared_len],
    [firstn], [skipn], [++] and [common_pad] on zero-padded windows.  The C++
    keeps it as one 64-bit word (art_internal_impl.hpp, union key_prefix: 7
    prefix bytes + 1 length byte) and computes with xor / count-trailing-zeros
    / shifts / masks.  Gen/GenKeyPrefix.v is regenerated from the header's AST
    on every run (tools/gen.py prefix); the theorems below state that each word
    function, under the ranges its UNODB_DETAIL_ASSERTs demand, is defined
    (all its assertions hold, no shift out of range, no signed overflow),
    returns a well-formed word, and acts on [prefix_bytes] like the list
    function the model uses. *)
From Coq Require Import List ZArith Bool.
From Unodb Require Import Base.Bytes Art.ArtModel Gen.GenKeyPrefix Art.ArtPrefixBridge.
Import ListNotations.
Local Open Scope Z_scope.

(** length(): the number of prefix bytes, at most key_prefix_capacity *)
Theorem C01b_length : forall w, wf_prefix w ->
  kp_length_defined w = true /\ kp_length w = Z.of_nat (length (prefix_bytes w)).
Proof. exact bridge_kp_length. Qed.
Print Assumptions C01b_length.

Theorem C01b_capacity : forall w, wf_prefix w ->
  bytes_ok (prefix_bytes w) /\ (length (prefix_bytes w) <= prefix_capacity)%nat.
Proof. exact (fun w W => conj (prefix_bytes_ok w) (prefix_bytes_capacity w W)). Qed.
Print Assumptions C01b_capacity.

(** length_to_word(length) *)
Theorem C01b_length_to_word : forall n, 0 <= n <= 7 ->
  kp_length_to_word_defined n = true /\
  wf_prefix (kp_length_to_word n) /\ prefix_bytes (kp_length_to_word n) = le_bytes (Z.to_nat n) 0.
Proof. exact bridge_kp_length_to_word. Qed.
Print Assumptions C01b_length_to_word.

(** shared_len(k1, k2, clamp_byte_pos): xor, sentinel bit, countr_zero, >> 3 is the
    number of equal leading bytes of the two little-endian words, at most the clamp *)
Theorem C01b_shared_len : forall k1 k2 c,
  0 <= k1 < 2 ^ 64 -> 0 <= k2 < 2 ^ 64 -> 0 <= c < 8 ->
  kp_shared_len_defined k1 k2 c = true /\
  kp_shared_len k1 k2 c = Z.of_nat (common_pad (Z.to_nat c) (le_bytes 8 k1) (le_bytes 8 k2)).
Proof. exact bridge_kp_shared_len. Qed.
Print Assumptions C01b_shared_len.

(** get_shared_length(shifted_key_u64) = the model's shared_len p rem *)
Theorem C01b_get_shared_length : forall rem w, wf_prefix w -> bytes_ok rem ->
  kp_get_shared_length_defined (key_word rem) w = true /\
  kp_get_shared_length (key_word rem) w = Z.of_nat (shared_len (prefix_bytes w) rem).
Proof. exact bridge_kp_get_shared_length. Qed.
Print Assumptions C01b_get_shared_length.

Theorem C01b_get_shared_length_key : forall k w,
  kp_get_shared_length_key k w = kp_get_shared_length k w /\
  kp_get_shared_length_key_defined k w = kp_get_shared_length_defined k w.
Proof. exact bridge_kp_get_shared_length_key. Qed.
Print Assumptions C01b_get_shared_length_key.

(** operator[](i) = the model's byte_at p i *)
Theorem C01b_at : forall i w, wf_prefix w -> 0 <= i < kp_len w ->
  kp_at_defined i w = true /\ byte_at (prefix_bytes w) (Z.to_nat i) = Ok (kp_at i w).
Proof. exact bridge_kp_at. Qed.
Print Assumptions C01b_at.

(** cut(cut_len) = skipn cut_len p *)
Theorem C01b_cut : forall n w, wf_prefix w -> 0 < n <= kp_len w ->
  kp_cut_defined n w = true /\ wf_prefix (kp_cut n w) /\
  prefix_bytes (kp_cut n w) = skipn (Z.to_nat n) (prefix_bytes w).
Proof. exact bridge_kp_cut. Qed.
Print Assumptions C01b_cut.

(** prepend(prefix1, prefix2) = prefix1 ++ prefix2 :: p *)
Theorem C01b_prepend : forall w1 b w3,
  wf_prefix w1 -> wf_prefix w3 -> is_byte b -> kp_len w3 + kp_len w1 < 7 ->
  kp_prepend_defined w1 b w3 = true /\ wf_prefix (kp_prepend w1 b w3) /\
  prefix_bytes (kp_prepend w1 b w3) = prefix_bytes w1 ++ b :: prefix_bytes w3.
Proof. exact bridge_kp_prepend. Qed.
Print Assumptions C01b_prepend.

Theorem C01b_prepend_model : forall w1 b w3 c ch,
  wf_prefix w1 -> wf_prefix w3 -> is_byte b -> kp_len w3 + kp_len w1 < 7 ->
  prepend_prefix (prefix_bytes w1) b (Inode c (prefix_bytes w3) ch)
  = Inode c (prefix_bytes (kp_prepend w1 b w3)) ch.
Proof. exact bridge_kp_prepend_model. Qed.
Print Assumptions C01b_prepend_model.

(** key_prefix(key_prefix_len, source) = firstn key_prefix_len p (prefix split) *)
Theorem C01b_init_len_src : forall n src, 0 <= src < 2 ^ 64 -> 0 <= n <= 7 ->
  kp_init_len_src_defined n src = true /\ wf_prefix (kp_init_len_src n src) /\
  prefix_bytes (kp_init_len_src n src) = firstn (Z.to_nat n) (le_bytes 8 src) /\
  (wf_prefix src -> n <= kp_len src ->
   prefix_bytes (kp_init_len_src n src) = firstn (Z.to_nat n) (prefix_bytes src)).
Proof. exact bridge_kp_init_len_src. Qed.
Print Assumptions C01b_init_len_src.

(** make_u64(k1, shifted_k2, depth) (leaf split): the model's
    firstn (common_pad prefix_capacity k1rem rem) (pad8 k1rem) *)
Theorem C01b_make_u64 : forall k1rem rem, bytes_ok k1rem -> bytes_ok rem ->
  let n' := common_pad prefix_capacity k1rem rem in
  kp_make_u64_defined (key_word k1rem) (key_word rem) = true /\
  wf_prefix (kp_make_u64 (key_word k1rem) (key_word rem)) /\
  prefix_bytes (kp_make_u64 (key_word k1rem) (key_word rem)) = firstn n' (pad8 k1rem).
Proof. exact bridge_kp_make_u64. Qed.
Print Assumptions C01b_make_u64.

(** key_prefix_snapshot (the iterator's copy) computes the same functions *)
Theorem C01b_snapshot :
  (forall k1 k2 c, kps_shared_len k1 k2 c = kp_shared_len k1 k2 c /\
                   kps_shared_len_defined k1 k2 c = kp_shared_len_defined k1 k2 c) /\
  (forall w, kps_length w = kp_length w) /\
  (forall k w, kps_get_shared_length k w = kp_get_shared_length k w) /\
  (forall i w, kps_at i w = kp_at i w).
Proof. exact bridge_kps. Qed.
Print Assumptions C01b_snapshot.

Theorem C01b_snapshot_get_shared_length : forall rem w, wf_prefix w -> bytes_ok rem ->
  kps_get_shared_length_defined (key_word rem) w = true /\
  kps_get_shared_length (key_word rem) w = Z.of_nat (shared_len (prefix_bytes w) rem).
Proof. exact bridge_kps_get_shared_length. Qed.
Print Assumptions C01b_snapshot_get_shared_length.

Theorem C01b_snapshot_at : forall i w, wf_prefix w -> 0 <= i < kp_len w ->
  kps_at_defined i w = true /\ byte_at (prefix_bytes w) (Z.to_nat i) = Ok (kps_at i w).
Proof. exact bridge_kps_at. Qed.
Print Assumptions C01b_snapshot_at.

Theorem C01b_constants :
  kp_capacity = Z.of_nat prefix_capacity /\ kp_key_bytes_mask = 2 ^ 56 - 1.
Proof. exact bridge_kp_constants. Qed.
Print Assumptions C01b_constants.

(** non-vacuity: the word 0x03_00000000_CCBBAA holds the prefix AA BB CC; cutting one
    byte and prepending the prefix [11] and the byte 22 gives 11 22 BB CC *)
Example C01b_nonvacuous :
  wf_prefix 216172782127201194 /\ prefix_bytes 216172782127201194 = [170; 187; 204] /\
  prefix_bytes (kp_cut 1 216172782127201194) = [187; 204] /\
  prefix_bytes (kp_prepend 72057594037927953 34 (kp_cut 1 216172782127201194)) = [17; 34; 187; 204] /\
  kp_get_shared_length (key_word [170; 187; 1; 2]) 216172782127201194 = 2.
Proof. unfold wf_prefix. repeat split; try reflexivity; vm_compute; congruence. Qed.
Print Assumptions C01b_nonvacuous.
