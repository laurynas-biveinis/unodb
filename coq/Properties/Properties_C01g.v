(** C01g — point operations behave as an ordered map, for byte-string keys of
    arbitrary, mixed lengths, under the library's contract (the key set is
    prefix-free) and the executable capacity guard of known finding K1.
    Statements only; each closed by [exact]; [Print Assumptions] beneath. *)
From Coq Require Import List ZArith Bool Lia.
From Unodb Require Import Base.Lex Art.ArtModel Art.ArtIter Art.ArtSpec Art.ArtInv Art.ArtProofs
  Art.ArtGenInv Art.ArtGenRun Art.ArtGenShort.
Import ListNotations.
Local Open Scope Z_scope.

(** [hist_ok sz d s ops] (ArtGenInv.v) is the conjunction, over every step of
    the history, of
      [op_pf s o]   : the operation's key consists of bytes and is prefix-free
                      together with the keys stored in the specification state;
      [op_fits d o] : the step does not need more than the 7 prefix bytes an
                      inner node holds (leaf split: the dispatch bytes differ;
                      collapse: parent prefix + 1 + child prefix <= 7).
    Every such history of get/insert/remove/empty/clear returns exactly what
    the map specification returns (in particular never [RErr]). *)
Theorem C01g_refines_map : forall sz ops, hist_ok sz db0 ([], 0) ops = true ->
  run sz db0 ops = spec_run ([], 0) ops.
Proof. exact run_refines_spec_g. Qed.
Print Assumptions C01g_refines_map.

(** The reached state satisfies the generalised invariant, its keys are
    distinct and pairwise prefix-free, it holds exactly the specification's
    entries (with leaf identities), and a lookup of any key that is
    prefix-free w.r.t. the stored keys agrees with the association list. *)
Theorem C01g_invariant : forall sz ops, hist_ok sz db0 ([], 0) ops = true ->
  let d := run_state sz db0 ops in
  db_WFg d /\ keys_nodup (db_leaves d) /\
  (forall e1 e2, In e1 (db_leaves d) -> In e2 (db_leaves d) -> pf2 (fst e1) (fst e2)) /\
  (forall k, assoc k (fst (spec_state ([], 0) ops)) = assoc k (db_leaves d)) /\
  (forall k, pfk k (db_leaves d) -> db_get d k = Ok (assoc k (db_leaves d))).
Proof. exact run_state_invariant_g. Qed.
Print Assumptions C01g_invariant.

(** part of the invariant, derived: path + prefix of every inner node is a
    proper prefix of (strictly shorter than) every key stored below it *)
Theorem C01g_inner_shorter : forall c p ch pi e,
  WFg (Inode c p ch) pi -> In e (leaves (Inode c p ch)) ->
  firstn (length (pi ++ p)) (fst e) = pi ++ p /\ (length pi + length p < length (fst e))%nat.
Proof. exact WFg_inner_shorter. Qed.
Print Assumptions C01g_inner_shorter.

(** The fixed-length domain of C01 satisfies both hypotheses automatically:
    the guard is not over-strong, and C01_refines_map is an instance. *)
Theorem C01g_fixed_length_instance : forall L sz ops, (1 <= L <= 8)%nat -> Forall (op_ok L) ops ->
  hist_ok sz db0 ([], 0) ops = true.
Proof. exact fixed_length_hist_ok. Qed.
Print Assumptions C01g_fixed_length_instance.

Theorem C01g_recovers_C01 : forall L sz ops, (1 <= L <= 8)%nat -> Forall (op_ok L) ops ->
  run sz db0 ops = spec_run ([], 0) ops.
Proof. exact run_refines_spec. Qed.
Print Assumptions C01g_recovers_C01.

Theorem C01g_WF_instance : forall L d, db_WF L d -> db_WFg d.
Proof. exact db_WF_WFg. Qed.
Print Assumptions C01g_WF_instance.

(** A purely specification-level sufficient condition: if every key of the
    history has at most 8 bytes (mixed lengths allowed), prefix-freedom alone
    ([hist_pf], computed on the specification run only) implies the capacity
    guard at every step, hence the refinement. *)
Theorem C01g_short_keys_instance : forall sz ops, Forall op_short ops -> hist_pf ([], 0) ops = true ->
  hist_ok sz db0 ([], 0) ops = true.
Proof. exact short_keys_hist_ok. Qed.
Print Assumptions C01g_short_keys_instance.

Theorem C01g_short_keys_refine : forall sz ops, Forall op_short ops -> hist_pf ([], 0) ops = true ->
  run sz db0 ops = spec_run ([], 0) ops.
Proof. exact short_keys_refine. Qed.
Print Assumptions C01g_short_keys_refine.

(** * a mixed-length history inside the domain *)

Definition ex_sz : sizes := {| sz_leaf := 11; sz4 := 48; sz16 := 160; sz48 := 672; sz256 := 2064 |}.

Definition ex_mixed : list op :=
  [OInsert [1;2;3] [10]; OInsert [1;2;4;5] [11] (* leaf split, prefix [1;2] *);
   OGet [1;2;3]; OInsert [1;9] [12] (* prefix split *); OInsert [2] [13];
   OGet [1;2;4;5]; OGet [1;9]; OGet [2]; OGet [3;3];
   ORemove [1;9] (* collapse into a child inode: prefix [] ++ 2 ++ [] *);
   OGet [1;2;3]; ORemove [2] (* collapse: prefix [] ++ 1 ++ [2] *); ORemove [7];
   OGet [1;2;4;5]; OInsert [1;2;3] [9]; ORemove [1;2;3] (* collapse onto a leaf *);
   OEmpty; ORemove [1;2;4;5]; OEmpty; OInsert [0;0;0;0;0;0;0;0;0] [1]; OInsert [0;0;0;0;0;0;0;1] [2];
   OGet [0;0;0;0;0;0;0;1]; OClear; OEmpty].

Example C01g_mixed_ok : hist_ok ex_sz db0 ([], 0) ex_mixed = true.
Proof. vm_compute. reflexivity. Qed.

(** the structural events really happen *)
Example C01g_mixed_shapes :
  root (run_state ex_sz db0 (firstn 2 ex_mixed)) =
    Some (Inode C4 [1;2] [(3, Leaf 0 [1;2;3] [10]); (4, Leaf 1 [1;2;4;5] [11])]) /\
  root (run_state ex_sz db0 (firstn 5 ex_mixed)) =
    Some (Inode C4 [] [(1, Inode C4 [] [(2, Inode C4 [] [(3, Leaf 0 [1;2;3] [10]); (4, Leaf 1 [1;2;4;5] [11])]);
                                          (9, Leaf 2 [1;9] [12])]);
                       (2, Leaf 3 [2] [13])]) /\
  root (run_state ex_sz db0 (firstn 10 ex_mixed)) =
    Some (Inode C4 [] [(1, Inode C4 [2] [(3, Leaf 0 [1;2;3] [10]); (4, Leaf 1 [1;2;4;5] [11])]);
                       (2, Leaf 3 [2] [13])]) /\
  root (run_state ex_sz db0 (firstn 12 ex_mixed)) =
    Some (Inode C4 [1;2] [(3, Leaf 0 [1;2;3] [10]); (4, Leaf 1 [1;2;4;5] [11])]) /\
  root (run_state ex_sz db0 (firstn 16 ex_mixed)) = Some (Leaf 1 [1;2;4;5] [11]) /\
  root (run_state ex_sz db0 (firstn 21 ex_mixed)) =
    Some (Inode C4 [0;0;0;0;0;0;0] [(0, Leaf 4 [0;0;0;0;0;0;0;0;0] [1]); (1, Leaf 5 [0;0;0;0;0;0;0;1] [2])]).
Proof. vm_compute. repeat split. Qed.

Example C01g_mixed_outputs :
  run ex_sz db0 ex_mixed =
  [RBool true; RBool true; RGet (Some (0, [10])); RBool true; RBool true;
   RGet (Some (1, [11])); RGet (Some (2, [12])); RGet (Some (3, [13])); RGet None;
   RBool true; RGet (Some (0, [10])); RBool true; RBool false; RGet (Some (1, [11]));
   RBool false; RBool true; RBool false; RBool true; RBool true; RBool true; RBool true;
   RGet (Some (5, [2])); RUnit; RBool true].
Proof. vm_compute. reflexivity. Qed.

Example C01g_short_nonvacuous :
  Forall op_short (firstn 19 ex_mixed) /\ hist_pf ([], 0) (firstn 19 ex_mixed) = true.
Proof.
  split; [|vm_compute; reflexivity]. unfold ex_mixed. cbn [firstn].
  repeat (constructor; [unfold op_short, short_key, prefix_capacity; cbn; lia|]). constructor.
Qed.

(** * both hypotheses are needed *)

(** K1, leaf split: two prefix-free keys sharing 9 bytes.  Prefix-freedom
    holds at every step, the capacity guard fails, the model loses a key. *)
Definition ex_k1 : list op :=
  [OInsert [97;97;97;97;97;97;97;97;97;88] [1];
   OInsert [97;97;97;97;97;97;97;97;97;89] [2];
   OGet [97;97;97;97;97;97;97;97;97;88]].

Theorem C01g_guard_needed :
  hist_pf ([], 0) ex_k1 = true /\ hist_ok ex_sz db0 ([], 0) ex_k1 = false /\
  op_fits (run_state ex_sz db0 (firstn 1 ex_k1)) (nth 1 ex_k1 OEmpty) = false /\
  run ex_sz db0 ex_k1 <> spec_run ([], 0) ex_k1.
Proof. exact k1_diverges. Qed.
Print Assumptions C01g_guard_needed.

(** K1, collapse: every split fits (prefixes [1;2] and [4;5;6;7;8;9]), the
    removal of [1;2;9] needs the prefix [1;2] ++ 3 ++ [4;5;6;7;8;9].  The
    model's prefix is an unbounded byte list (the C++ key_prefix::prepend
    asserts length() + prefix1.length() < key_prefix_capacity), so what breaks
    in the model is the invariant: the state is not representable any more. *)
Theorem C01g_guard_needed_collapse : exists sz ops,
  hist_pf ([], 0) ops = true /\ hist_ok sz db0 ([], 0) (removelast ops) = true /\
  op_fits (run_state sz db0 (removelast ops)) (last ops OEmpty) = false /\
  ~ db_WFg (run_state sz db0 ops).
Proof. exact collapse_overflow_refuted. Qed.
Print Assumptions C01g_guard_needed_collapse.

(** outside the contract (a looked-up key that is a proper prefix of a stored
    key) the capacity guard alone does not help: out-of-bounds key access *)
Definition ex_not_pf : list op := [OInsert [1;0;3] [1]; OInsert [1;0;4] [2]; OGet [1]].

Theorem C01g_prefix_free_needed :
  hist_pf ([], 0) ex_not_pf = false /\
  op_fits (run_state ex_sz db0 (firstn 2 ex_not_pf)) (nth 2 ex_not_pf OEmpty) = true /\
  run ex_sz db0 ex_not_pf <> spec_run ([], 0) ex_not_pf.
Proof. vm_compute. repeat split; discriminate. Qed.
Print Assumptions C01g_prefix_free_needed.
