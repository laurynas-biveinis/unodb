(** C03 — concurrent get/insert/remove on the OLC index are linearizable.
    What is a Coq theorem here: the lock layer lifted to every node of a
    trace accepted by the per-node acceptor, and the soundness of the
    linearizability validator run on every explored execution.  The
    end-to-end statement "every interleaving of the tree algorithms is
    linearizable" is NOT proved (DESIGN.md, C03: layers L2/L3 open); on the
    code it is decided for the explored schedules. *)
From Coq Require Import List ZArith Bool Permutation.
From Unodb Require Import Lock.LockModel Lock.LockProofs Olc.OlcTrace Olc.OlcProofs Lin.LinCheck Lin.LinProofs.
Import ListNotations.
Local Open Scope Z_scope.

(** L0/L1: in a trace accepted node by node, every store to a node's fields
    is made by the holder of that node's write guard (built into the
    acceptor), and a read section of any node that validates is a snapshot *)
Theorem C03_node_projection_accepted : forall inits tr b s0,
  node_accepts inits tr = true -> In (b, s0) inits -> exists s, lrun s0 (project b tr) = Some s.
Proof. exact node_accepts_lrun. Qed.
Print Assumptions C03_node_projection_accepted.

Theorem C03_node_snapshot : forall s0 m s2 v,
  LInv s0 -> lw s0 = v -> w_is_free v = true -> lrun s0 m = Some s2 -> lw s2 = v ->
  Forall (fun s => lw s = v /\ lmem s = lmem s0 /\ guards s = []) (lstates s0 m).
Proof. exact snapshot_gen. Qed.
Print Assumptions C03_node_snapshot.

(** the validator that decides each recorded history is sound: an accepted
    witness order is a permutation of the calls that respects real-time
    precedence and is a legal sequential execution of the map *)
Theorem C03_lin_validator_sound : forall init h order,
  lin_ok init h order = true ->
  exists l, Permutation l h /\ rt_ok l = true /\ seq_legal init l = true.
Proof. exact lin_ok_sound. Qed.
Print Assumptions C03_lin_validator_sound.
