(** C03, reader side: the lock-coupling descent of try_get is linearizable
    relative to the lock discipline (C07) and the writers' rely conditions W1
    (unlinked nodes are marked obsolete) and W2 (path ++ prefix of an inner
    node is invariant).  See Olc/ReadModel.v. *)
From Coq Require Import List ZArith Bool Arith Lia.
From Unodb Require Import Lock.LockModel Olc.ReadModel Olc.ReadProofs Olc.ExampleKit.
Import ListNotations.
Local Open Scope Z_scope.

(** every node of a valid run is in the tree with the word and content the
    reader saw, at every moment of its section.  It is on the search path of
    the key (reached after exactly the key bytes the reader had consumed) at
    the moment it was locked; an inner node stays on that path at every moment
    of its section -- in particular at any moment at which a writer that
    upgraded these sections holds their write guards (the writer's view of
    parent, node and child is accurate when it commits).  A leaf keeps its
    content but not necessarily its path: W2 speaks about inner nodes only,
    and a split of the leaf's slot puts a new inner node above the unchanged
    leaf (C03_leaf_path_may_change below). *)
Theorem C03_hops_on_path : forall H k rn r,
  disciplined H -> stays_reachable H -> fullpath_stable H -> valid_run H k rn r ->
  forall a d, In (a, d) (hop_depths 0 (r_hops rn)) ->
  forall t, (h_lock a <= t <= h_check a)%nat ->
    ((t = h_lock a \/ exists p cs, h_cont a = CInode p cs) -> reach (H t) (h_node a) (firstn d k)) /\
    (exists pth, reach (H t) (h_node a) pth) /\
    exists c, hp (H t) (h_node a) = Some c /\ word c = h_word a /\ cont c = h_cont a.
Proof. exact hops_on_path. Qed.
Print Assumptions C03_hops_on_path.

(** the result of a completed try_get is the result of a lookup in the tree
    as it is at one moment between the reader's first and last step *)
Theorem C03_reader_linearizable : forall H k rn r,
  disciplined H -> stays_reachable H -> fullpath_stable H -> valid_run H k rn r ->
  exists T, (r_lock rn <= T <= last_moment rn)%nat /\ lookup (H T) k r.
Proof. exact reader_linearizable. Qed.
Print Assumptions C03_reader_linearizable.

(** lookup is a function of the heap: the linearization point determines the result *)
Theorem C03_lookup_deterministic : forall g k r1 r2, lookup g k r1 -> lookup g k r2 -> r1 = r2.
Proof. exact lookup_deterministic. Qed.
Print Assumptions C03_lookup_deterministic.

(** ** Concrete histories *)

(** *** Non-vacuity: a three-hop run across an unrelated insert

    root inner node 0 (prefix [7]) with the inner child 1 under byte 1 and the
    leaf 2 under byte 2; node 1 has the leaf 3 under byte 5.  From moment 3 on
    a writer has added the leaf 4 under byte 3 of node 0 (bumping node 0's
    word from 0 to 4).  The reader looks up [7;1;5]; its sections of node 1
    and of the leaf span the writer's step. *)
Definition nv_leaf2 := {| word := 0; cont := CLeaf [7;2] [20] |}.
Definition nv_leaf3 := {| word := 0; cont := CLeaf [7;1;5] [15] |}.
Definition nv_leaf4 := {| word := 0; cont := CLeaf [7;3] [30] |}.
Definition nv_node1 := {| word := 0; cont := CInode [] [(5, 3%nat)] |}.
Definition nv_cs0 : list (Z * nid) := [(1, 1%nat); (2, 2%nat)].
Definition nv_cs1 : list (Z * nid) := [(1, 1%nat); (2, 2%nat); (3, 4%nat)].

Definition nv_g0 : gstate :=
  {| hp := fun n => match n with
                    | 0%nat => Some {| word := 0; cont := CInode [7] nv_cs0 |}
                    | 1%nat => Some nv_node1
                    | 2%nat => Some nv_leaf2
                    | 3%nat => Some nv_leaf3
                    | _ => None
                    end;
     root_word := 0; root := Some 0%nat |}.

Definition nv_g1 : gstate :=
  {| hp := fun n => match n with
                    | 0%nat => Some {| word := 4; cont := CInode [7] nv_cs1 |}
                    | 1%nat => Some nv_node1
                    | 2%nat => Some nv_leaf2
                    | 3%nat => Some nv_leaf3
                    | 4%nat => Some nv_leaf4
                    | _ => None
                    end;
     root_word := 0; root := Some 0%nat |}.

Definition nv_H : history := fun t => if (t <? 3)%nat then nv_g0 else nv_g1.

Definition nv_key : key := [7;1;5].
Definition nv_run : run :=
  {| r_lock := 0%nat; r_word := 0; r_check := 0%nat; r_ptr := Some 0%nat;
     r_hops := [ {| h_node := 0%nat; h_lock := 0%nat; h_check := 1%nat; h_word := 0; h_cont := CInode [7] nv_cs0 |};
                 {| h_node := 1%nat; h_lock := 1%nat; h_check := 4%nat; h_word := 0; h_cont := CInode [] [(5, 3%nat)] |};
                 {| h_node := 3%nat; h_lock := 2%nat; h_check := 5%nat; h_word := 0; h_cont := CLeaf [7;1;5] [15] |} ] |}.

(** the nodes of nv_g1, those of nv_g0 among them, with their paths *)
Definition nv_tbl : list (nid * list Z) :=
  [(0%nat, []); (1%nat, [7;1]); (2%nat, [7;2]); (3%nat, [7;1;5]); (4%nat, [7;3])].

Lemma nv_disciplined : disciplined nv_H.
Proof.
  apply (phased_disciplined [(3%nat, nv_g0)] nv_g1). apply sorted2. split; [|left; split; reflexivity].
  intros n c Hc. each_node 5 n (cell_le Hc).
Qed.

Lemma nv_stays_reachable : stays_reachable nv_H.
Proof.
  apply (phased_stays_reachable [(3%nat, nv_g0)] nv_g1). apply sorted2. apply grows_reach_le. split; [reflexivity|].
  intros n c p cs b c' Hc Hk Hf. each_node 5 n (edge_stays Hc Hk Hf).
Qed.

Lemma nv_fullpath_stable : fullpath_stable nv_H.
Proof.
  apply (phased_fullpath [(3%nat, nv_g0)] nv_g1 (fun n => match n with 0%nat => [7] | _ => [7;1] end)).
  intros g [<- | [<- | []]]; apply (fp_fullpath _ _ nv_tbl); reflexivity.
Qed.

Lemma nv_valid_run : valid_run nv_H nv_key nv_run (Some [15]).
Proof.
  unfold valid_run. cbn [r_lock r_check r_word r_ptr r_hops nv_run].
  repeat split; try reflexivity; try lia.
  eexists _, _. split; [reflexivity|]. split; [reflexivity|].
  eapply ho_step with (p := [7]) (cs := nv_cs0); [hop_now | cbn; lia | reflexivity..|].
  eapply ho_step with (p := []) (cs := [(5, 3%nat)]); [hop_now | cbn; lia | reflexivity..|].
  eapply ho_last; [hop_now | cbn; lia | apply st_hit].
Qed.

(** the hypotheses of the C03 reader theorems are satisfiable by a history
    with a concurrent writer, and a run with a hit exists in it *)
Example C03_reader_nonvacuous : exists H k rn r,
  disciplined H /\ stays_reachable H /\ fullpath_stable H /\ valid_run H k rn r /\ r <> None.
Proof.
  exists nv_H, nv_key, nv_run, (Some [15]).
  split; [exact nv_disciplined|]. split; [exact nv_stays_reachable|]. split; [exact nv_fullpath_stable|].
  split; [exact nv_valid_run | discriminate].
Qed.
Print Assumptions C03_reader_nonvacuous.

(** in that history the reader's linearization point exists between moments 0 and 5 *)
Example C03_reader_nonvacuous_lin : exists T, (0 <= T <= 5)%nat /\ lookup (nv_H T) nv_key (Some [15]).
Proof.
  exact (C03_reader_linearizable nv_H nv_key nv_run (Some [15])
           nv_disciplined nv_stays_reachable nv_fullpath_stable nv_valid_run).
Qed.
Print Assumptions C03_reader_nonvacuous_lin.

(** *** Why the path claim is restricted for leaves

    The unrestricted claim "reach (H t) (h_node a) (firstn d k) at every t of
    the section" fails for a leaf hop.  At moment 0 the root inner node 0 has
    the leaf 1 (key [1;2]) under byte 1.  At moment 1 a writer has inserted
    [1;3]: node 0 (word bumped to 4) now has the new inner node 2 under byte
    1, and node 2 has the old, untouched leaf 1 under byte 2 and the new leaf
    3 under byte 3.  The history is disciplined and satisfies W1 and W2.  The
    reader of [1;2] locked the leaf at moment 0 after one consumed byte and
    checked it at moment 1 (its word never changed); at moment 1 the leaf is
    reached after two bytes, not one. *)
Definition cx_leaf1 := {| word := 0; cont := CLeaf [1;2] [10] |}.
Definition cx_g0 : gstate :=
  {| hp := fun n => match n with
                    | 0%nat => Some {| word := 0; cont := CInode [] [(1, 1%nat)] |}
                    | 1%nat => Some cx_leaf1
                    | _ => None
                    end;
     root_word := 0; root := Some 0%nat |}.
Definition cx_g1 : gstate :=
  {| hp := fun n => match n with
                    | 0%nat => Some {| word := 4; cont := CInode [] [(1, 2%nat)] |}
                    | 1%nat => Some cx_leaf1
                    | 2%nat => Some {| word := 0; cont := CInode [] [(2, 1%nat); (3, 3%nat)] |}
                    | 3%nat => Some {| word := 0; cont := CLeaf [1;3] [11] |}
                    | _ => None
                    end;
     root_word := 0; root := Some 0%nat |}.
Definition cx_H : history := fun t => if (t <? 1)%nat then cx_g0 else cx_g1.
Definition cx_key : key := [1;2].
Definition cx_hop_leaf : hop :=
  {| h_node := 1%nat; h_lock := 0%nat; h_check := 1%nat; h_word := 0; h_cont := CLeaf [1;2] [10] |}.
Definition cx_run : run :=
  {| r_lock := 0%nat; r_word := 0; r_check := 0%nat; r_ptr := Some 0%nat;
     r_hops := [ {| h_node := 0%nat; h_lock := 0%nat; h_check := 0%nat; h_word := 0; h_cont := CInode [] [(1, 1%nat)] |};
                 cx_hop_leaf ] |}.

Definition cx_tbl0 : list (nid * list Z) := [(0%nat, []); (1%nat, [1])].
Definition cx_tbl1 : list (nid * list Z) := [(0%nat, []); (2%nat, [1]); (1%nat, [1;2]); (3%nat, [1;3])].

Lemma cx_disciplined : disciplined cx_H.
Proof.
  apply (phased_disciplined [(1%nat, cx_g0)] cx_g1). apply sorted2. split; [|left; split; reflexivity].
  intros n c Hc. each_node 2 n (cell_le Hc).
Qed.

(** the leaf moves from [1] to [1;2] *)
Lemma cx_stays_reachable : stays_reachable cx_H.
Proof.
  apply (phased_stays_reachable [(1%nat, cx_g0)] cx_g1). apply sorted2. intros n pth Hr.
  destruct (closed_reach cx_g0 cx_tbl0 eq_refl n pth Hr) as [E|[E|[]]]; injection E as <- <-.
  - exists []. apply (reach_by cx_g1 0%nat []); reflexivity.
  - exists [1;2]. apply (reach_by cx_g1 0%nat [1;2]); reflexivity.
Qed.

Lemma cx_fullpath_stable : fullpath_stable cx_H.
Proof.
  apply (phased_fullpath [(1%nat, cx_g0)] cx_g1 (fun n => match n with 0%nat => [] | _ => [1] end)).
  intros g [<- | [<- | []]]; [apply (fp_fullpath _ _ cx_tbl0) | apply (fp_fullpath _ _ cx_tbl1)]; reflexivity.
Qed.

Lemma cx_valid_run : valid_run cx_H cx_key cx_run (Some [10]).
Proof.
  unfold valid_run. cbn [r_lock r_check r_word r_ptr r_hops cx_run].
  repeat split; try reflexivity; try lia.
  eexists _, _. split; [reflexivity|]. split; [reflexivity|].
  eapply ho_step with (p := []) (cs := [(1, 1%nat)]); [hop_now | cbn; lia | reflexivity..|].
  eapply ho_last; [hop_now | cbn; lia | apply st_hit].
Qed.

Lemma cx_leaf_moved : ~ reach (cx_H 1%nat) 1%nat [1].
Proof.
  intros Hr. apply (closed_reach cx_g1 cx_tbl1 eq_refl) in Hr. cbn in Hr. intuition congruence.
Qed.

Example C03_leaf_path_may_change : exists H k rn r,
  disciplined H /\ stays_reachable H /\ fullpath_stable H /\ valid_run H k rn r /\
  exists a d t, In (a, d) (hop_depths 0 (r_hops rn)) /\ (h_lock a <= t <= h_check a)%nat /\
    ~ reach (H t) (h_node a) (firstn d k).
Proof.
  exists cx_H, cx_key, cx_run, (Some [10]).
  split; [exact cx_disciplined|]. split; [exact cx_stays_reachable|]. split; [exact cx_fullpath_stable|].
  split; [exact cx_valid_run|].
  exists cx_hop_leaf, 1%nat, 1%nat. split; [cbn; auto|]. split; [cbn; lia|].
  exact cx_leaf_moved.
Qed.
Print Assumptions C03_leaf_path_may_change.
