(** C03e: the sequential ART model (Art/ArtModel.v, tied to the C++ index by
    the differential runs) and the concurrent heap model (Olc/ReadModel.v,
    Olc/WriteModel.v) are connected: one successful step of the sequential
    algorithm IS one atomic commit shape of the writer.

    [represents g d]: the heap reachable from the root pointer of g is the
    tree of d with the node classes forgotten (an inner node of any class is
    CInode prefix children, children in array order = sorted by key byte),
    leaves carry the same key / value, every tree position has its own heap
    id (some assignment: a relation), all words free, and the allocated ids
    are bounded (so fresh ids exist). *)
From Coq Require Import List ZArith Bool Arith.
From Unodb Require Import Art.ArtModel Art.ArtSpec Art.ArtInv Art.ArtProofs.
From Unodb Require Import Lock.LockModel Olc.ReadModel Olc.WriteModel Olc.WriteShapes Olc.WriteProofs.
From Unodb Require Import Olc.ArtRefine Olc.ArtRefineIns Olc.ArtRefineRem Olc.ArtRefineRun.
Import ListNotations.

(** insert, key absent: the step is one insert commit, namely the shape that
    belongs to the structural event the statistics count: root leaf ->
    root_insert (S3), leaf split -> leaf_split (S4), prefix split ->
    prefix_split (S6), add to a non-full node -> add_leaf (S1), grow to the
    next class -> replace_ins (S5) *)
Theorem C03e_insert_shape : forall L sz d k v d' g, (1 <= L <= 8)%nat ->
  represents g d -> db_WF L d -> key_ok L k ->
  db_insert sz d k v = Ok (d', true) ->
  exists e g', insert_event d k v = Some e /\ ins_shape e k v g g' /\ represents g' d'.
Proof. exact insert_refines_shape. Qed.
Print Assumptions C03e_insert_shape.

Theorem C03e_insert : forall L sz d k v d' g, (1 <= L <= 8)%nat ->
  represents g d -> db_WF L d -> key_ok L k ->
  db_insert sz d k v = Ok (d', true) ->
  exists g', ins_commit k v g g' /\ represents g' d'.
Proof. exact insert_refines. Qed.
Print Assumptions C03e_insert.

(** insert, key present: no change, no commit *)
Theorem C03e_insert_present : forall sz d k v d', db_insert sz d k v = Ok (d', false) -> d' = d.
Proof. exact insert_present. Qed.
Print Assumptions C03e_insert_present.

(** remove, key present: one remove commit: root leaf -> root_remove (S3),
    node above its minimum -> remove_leaf (S2), shrink to the smaller class ->
    replace_rem (S5), two-child N4 -> collapse with prefix prepend (S7) *)
Theorem C03e_remove_shape : forall L sz d k d' g,
  represents g d -> db_WF L d -> key_ok L k ->
  db_remove sz d k = Ok (d', true) ->
  exists e g', remove_event d k = Some e /\ rem_shape e k g g' /\ represents g' d'.
Proof. exact remove_refines_shape. Qed.
Print Assumptions C03e_remove_shape.

Theorem C03e_remove : forall L sz d k d' g,
  represents g d -> db_WF L d -> key_ok L k ->
  db_remove sz d k = Ok (d', true) ->
  exists g', rem_commit k g g' /\ represents g' d'.
Proof. exact remove_refines. Qed.
Print Assumptions C03e_remove.

Theorem C03e_remove_absent : forall sz d k d', db_remove sz d k = Ok (d', false) -> d' = d.
Proof. exact remove_absent. Qed.
Print Assumptions C03e_remove_absent.

(** a sequential run (fixed-length keys, no clear(): clear is not a
    concurrent operation) from the empty index: the states it goes through
    are represented, moment by moment, by a history generated by commits *)
Theorem C03e_run_generated : forall L sz ops, (1 <= L <= 8)%nat -> Forall (op_ok L) ops -> Forall no_clear ops ->
  exists H : history, generated H /\ H 0 = g_empty /\
    (forall t, t <= length ops -> represents (H t) (run_state sz db0 (firstn t ops))) /\
    (forall t, length ops <= t -> H t = H (length ops)).
Proof. exact run_generated. Qed.
Print Assumptions C03e_run_generated.

(** adequacy of [represents]: the heap lookup is the sequential get *)
Theorem C03e_represents_lookup : forall L g d k, represents g d -> db_WF L d -> key_ok L k ->
  exists r, db_get d k = Ok r /\ lookup g k (option_map snd r).
Proof. exact represents_lookup. Qed.
Print Assumptions C03e_represents_lookup.

(** adequacy of [represents] (2): the heap invariant of the concurrent model
    follows from the representation of a well-formed sequential tree *)
Theorem C03e_represents_WF : forall L g d, represents g d -> db_WF L d -> WF g.
Proof. exact represents_WF. Qed.
Print Assumptions C03e_represents_WF.

(** hence C03d applies to every sequential step: it is a good step of the
    concurrent model with the effect of map insert / remove on lookups *)
Theorem C03e_insert_full : forall L sz d k v d' g, (1 <= L <= 8)%nat ->
  represents g d -> db_WF L d -> key_ok L k ->
  db_insert sz d k v = Ok (d', true) ->
  exists g', ins_commit k v g g' /\ represents g' d' /\ step_ok g g' /\ insert_effect k v g g'.
Proof.
  intros L sz d k v d' g HL Hrep HW Hk Hins.
  destruct (insert_refines L sz d k v d' g HL Hrep HW Hk Hins) as (g' & Hc & Hrep').
  exists g'. split; [exact Hc | split; [exact Hrep'|]].
  exact (ins_commit_ok k v g g' (represents_WF L g d Hrep HW) Hc).
Qed.
Print Assumptions C03e_insert_full.

Theorem C03e_remove_full : forall L sz d k d' g,
  represents g d -> db_WF L d -> key_ok L k ->
  db_remove sz d k = Ok (d', true) ->
  exists g', rem_commit k g g' /\ represents g' d' /\ step_ok g g' /\ remove_effect k g g'.
Proof.
  intros L sz d k d' g Hrep HW Hk Hrem.
  destruct (remove_refines L sz d k d' g Hrep HW Hk Hrem) as (g' & Hc & Hrep').
  exists g'. split; [exact Hc | split; [exact Hrep'|]].
  exact (rem_commit_ok k g g' (represents_WF L g d Hrep HW) Hc).
Qed.
Print Assumptions C03e_remove_full.
