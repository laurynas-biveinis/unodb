(** C04, main clause: no thread reads or writes a tree node after it has been
    handed back to the allocator.

    Composition of the heap-history model of the OLC index with the QSBR
    guarantee (Olc/UafModel.v, Olc/UafProofs.v).  One thread th is followed
    through one non-quiescent period [s, e] (in_period: registered throughout,
    no quiescent state after s).  Its access trace lists EVERY node it touches
    - lock words read-locked before the parent section is validated, nodes of
    attempts that later fail validation, stack entries re-locked by the
    iterator, leaf bytes behind a returned value view - each with the origin of
    the pointer: the root pointer, or a child slot of a node touched earlier
    in the period, with the value the history shows at the read moment
    (trace_ok).  No version check is assumed anywhere.

    Hypotheses, all explicit:
      writers_discipline  retire only what has left the tree for good
                          (retire_unlinked); after a node has been in the tree
                          a child pointer appears in it only while it is in
                          the tree (obsolete_children_frozen: the child set of
                          an unlinked node only shrinks);
      qsbr_safe           a block retired at r by thread t is not freed while
                          a thread other than t that was registered at r has not
                          passed a quiescent state (C05c_fine_safe /
                          C04_view_stable);
      freed_via_retire    a node that was ever in the tree reaches the
                          allocator only through QSBR;
      own_retire_later    the thread does not touch a node after retiring it
                          itself (QSBR does not protect the retirer from
                          itself). *)
From Coq Require Import List ZArith Bool Arith Lia.
From Unodb Require Import Lock.LockModel Olc.ReadModel Olc.WriteModel Olc.WriteExample Olc.UafModel Olc.UafProofs.
Import ListNotations.
Local Open Scope nat_scope.

(** every node touched in the period was in the tree at some moment of the
    period, no later than the touch *)
Theorem C04b_touched_was_reachable : forall H s tr, obsolete_children_frozen H -> trace_ok H s tr ->
  forall d, In d tr -> exists y, s <= y <= d_at d /\ linked (H y) (d_node d).
Proof. exact touched_was_reachable. Qed.
Print Assumptions C04b_touched_was_reachable.

(** NO USE AFTER FREE, for all accesses (validated or not, of successful or
    failed attempts): the node is not with the allocator when it is touched *)
Theorem C04b_no_use_after_free : forall H R th s e tr,
  writers_discipline H R -> qsbr_safe R -> freed_via_retire H R ->
  in_period R th s e -> trace_ok H s tr -> own_retire_later R th tr ->
  forall d, In d tr -> d_at d <= e -> ~ rc_freed R (d_at d) (d_node d).
Proof. exact no_use_after_free. Qed.
Print Assumptions C04b_no_use_after_free.

(** the load of a child slot out of node Y is an access to Y: not freed either *)
Theorem C04b_slot_read_not_freed : forall H R th s e tr,
  writers_discipline H R -> qsbr_safe R -> freed_via_retire H R ->
  in_period R th s e -> trace_ok H s tr -> own_retire_later R th tr ->
  forall d Y b m, In d tr -> d_src d = FromChild Y b m -> d_at d <= e -> ~ rc_freed R m Y.
Proof. exact slot_read_not_freed. Qed.
Print Assumptions C04b_slot_read_not_freed.

(** stronger form: once touched, a node stays away from the allocator until
    the end of the period (this is what keeps a returned value view readable
    until the reader quiesces), unless the thread retires it itself *)
Theorem C04b_protected_until_quiescent : forall H R th s e tr,
  writers_discipline H R -> qsbr_safe R -> freed_via_retire H R ->
  in_period R th s e -> trace_ok H s tr ->
  forall d u, In d tr -> d_at d <= u <= e ->
    (forall r, rc_retire R r th (d_node d) -> u < r) -> ~ rc_freed R u (d_node d).
Proof. exact protected_until_quiescent. Qed.
Print Assumptions C04b_protected_until_quiescent.

(** a node in the tree at moment t has not been retired and is not freed at t *)
Theorem C04b_reachable_not_retired : forall H R, retire_unlinked H R ->
  forall t n, linked (H t) n -> forall r th, r <= t -> ~ rc_retire R r th n.
Proof. exact reachable_not_retired. Qed.
Print Assumptions C04b_reachable_not_retired.

Theorem C04b_reachable_never_freed : forall H R, retire_unlinked H R -> freed_via_retire H R ->
  forall t n, linked (H t) n -> ~ rc_freed R t n.
Proof. exact reachable_never_freed. Qed.
Print Assumptions C04b_reachable_never_freed.

(** the writers' discipline is TRUE of the commit shapes of Olc/WriteModel.v:
    on a history generated by them, retiring only nodes whose word is obsolete
    gives retire_unlinked, and obsolete_children_frozen holds outright (a
    commit keeps the content of every node it marks obsolete, and changes the
    children of a node only together with a version bump, which W1 turns into
    "still in the tree") *)
Theorem C04b_generated_satisfy_discipline : forall H R, generated H -> retire_obsolete H R ->
  writers_discipline H R.
Proof. exact generated_discipline. Qed.
Print Assumptions C04b_generated_satisfy_discipline.

Theorem C04b_generated_frozen : forall H, generated H -> obsolete_children_frozen H.
Proof. exact generated_frozen. Qed.
Print Assumptions C04b_generated_frozen.

Theorem C04b_generated_no_use_after_free : forall H R th s e tr,
  generated H -> retire_obsolete H R -> qsbr_safe R -> freed_via_retire H R ->
  in_period R th s e -> trace_ok H s tr -> own_retire_later R th tr ->
  forall d, In d tr -> d_at d <= e -> ~ rc_freed R (d_at d) (d_node d).
Proof. exact generated_no_use_after_free. Qed.
Print Assumptions C04b_generated_no_use_after_free.

(** non-vacuity 1 (hand-written history ux_H): root inode 1 over leaves 2, 3;
    the reader enters node 1 at moment 1; at moment 2 a collapse unlinks nodes
    1 and 2 (obsolete, content kept); the reader reads the slot for byte 1 out
    of the obsolete node 1 at moment 3, touches the unlinked leaf 2 at moment 4
    and node 1 again at 5.  Retire at 3, the reader quiesces at 7, release at
    8: all hypotheses hold, and the memory is really released afterwards. *)
Example C04b_nonvacuous :
  writers_discipline ux_H (ux_R 3 8 7) /\ unlink_retires ux_H (ux_R 3 8 7) /\
  qsbr_safe (ux_R 3 8 7) /\ freed_via_retire ux_H (ux_R 3 8 7) /\
  in_period (ux_R 3 8 7) 0 0 6 /\ trace_ok ux_H 0 ux_trace /\ own_retire_later (ux_R 3 8 7) 0 ux_trace /\
  linked (ux_H 1) 1 /\ ~ linked (ux_H 2) 1 /\ ~ linked (ux_H 3) 2 /\
  (exists c, hp (ux_H 3) 1 = Some c /\ w_is_obsolete (word c) = true) /\
  rc_freed (ux_R 3 8 7) 8 2.
Proof.
  split; [apply ux_discipline; lia|]. split; [apply ux_unlink_retires; lia|].
  split; [apply ux_qsbr_safe; lia|]. split; [apply ux_freed_via_retire; lia|].
  split; [apply ux_in_period; lia|]. split; [exact ux_trace_ok|]. split; [apply ux_own|].
  split; [rewrite ux_H_early by lia; apply ux_g0_linked; auto|].
  split; [apply ux_late_unlinked; [lia | auto]|].
  split; [apply ux_late_unlinked; [lia | auto]|].
  split; [eexists; split; reflexivity|].
  cbn. auto.
Qed.

(** non-vacuity 2 (generated history): the run of Olc/WriteExample.v with the
    collapse at moment 3; the reader holds inode 1 across the collapse and
    follows its slot to the unlinked leaf 2 *)
Example C04b_nonvacuous_generated :
  generated gen_H /\ retire_obsolete gen_H (ux_R 4 8 7) /\ qsbr_safe (ux_R 4 8 7) /\
  freed_via_retire gen_H (ux_R 4 8 7) /\ in_period (ux_R 4 8 7) 0 2 6 /\
  trace_ok gen_H 2 gen_trace /\ own_retire_later (ux_R 4 8 7) 0 gen_trace /\
  linked (gen_H 2) 1 /\ ~ linked (gen_H 3) 1 /\ ~ linked (gen_H 3) 2.
Proof.
  split; [exact gen_H_generated|]. split; [exact gen_retire_obsolete|].
  split; [apply ux_qsbr_safe; lia|]. split; [apply ux_freed_via_retire; lia|].
  split; [apply ux_in_period; lia|]. split; [exact gen_trace_ok|]. split; [apply ux_own|].
  split; [exists []; apply reach_root; reflexivity|].
  split; intros [pth Hr]; apply gen_late_reach in Hr; discriminate.
Qed.

(** the QSBR hypothesis is needed: same history and trace, the nodes are
    released at the unlink moment; every other hypothesis holds and the access
    at moment 4 hits released memory *)
Theorem C04b_qsbr_needed :
  writers_discipline ux_H (ux_R 2 2 100) /\ freed_via_retire ux_H (ux_R 2 2 100) /\
  in_period (ux_R 2 2 100) 0 0 6 /\ trace_ok ux_H 0 ux_trace /\ own_retire_later (ux_R 2 2 100) 0 ux_trace /\
  ~ qsbr_safe (ux_R 2 2 100) /\
  exists d, In d ux_trace /\ d_at d <= 6 /\ rc_freed (ux_R 2 2 100) (d_at d) (d_node d).
Proof.
  assert (W : writers_discipline ux_H (ux_R 2 2 100)) by (apply ux_discipline; lia).
  assert (FV : freed_via_retire ux_H (ux_R 2 2 100)) by (apply ux_freed_via_retire; lia).
  assert (P : in_period (ux_R 2 2 100) 0 0 6) by (apply ux_in_period; lia).
  assert (X : exists d, In d ux_trace /\ d_at d <= 6 /\ rc_freed (ux_R 2 2 100) (d_at d) (d_node d)).
  { exists {| d_at := 4; d_node := 2; d_src := FromChild 1 1%Z 3 |}.
    split; [right; left; reflexivity|]. cbn. lia. }
  repeat (split; [first [assumption | exact ux_trace_ok | apply ux_own]|]).
  split; [|exact X].
  intros Q. destruct X as (d & Hin & Hle & Hf).
  exact (no_use_after_free ux_H _ 0 0 6 ux_trace W Q FV P ux_trace_ok (ux_own _ _ _ _) d Hin Hle Hf).
Qed.
Print Assumptions C04b_qsbr_needed.

(** the documented contract: a thread that passes a quiescent state while
    holding a pointer is NOT protected.  QSBR and the writers keep their
    promises, the reader stays registered; it read the slot at moment 1,
    quiesced at 4, and its access at moment 6 hits memory released at 5 *)
Theorem C04b_quiescent_state_ends_protection :
  writers_discipline ux_H (ux_R 3 5 4) /\ qsbr_safe (ux_R 3 5 4) /\ freed_via_retire ux_H (ux_R 3 5 4) /\
  trace_ok ux_H 0 ux_trace_q /\ own_retire_later (ux_R 3 5 4) 0 ux_trace_q /\
  (forall t, rc_reg (ux_R 3 5 4) t 0) /\ rc_quiesce (ux_R 3 5 4) 4 0 /\
  in_period (ux_R 3 5 4) 0 0 3 /\ ~ in_period (ux_R 3 5 4) 0 0 6 /\
  (forall s, 1 < s -> ~ trace_ok ux_H s ux_trace_q) /\
  exists d, In d ux_trace_q /\ rc_freed (ux_R 3 5 4) (d_at d) (d_node d).
Proof.
  split; [apply ux_discipline; lia|]. split; [apply ux_qsbr_safe; lia|].
  split; [apply ux_freed_via_retire; lia|]. split; [exact ux_trace_q_ok|]. split; [apply ux_own|].
  split; [intros t; cbn; auto|]. split; [cbn; auto|].
  split; [apply ux_in_period; lia|].
  split.
  { intros P. assert (H4 : 0 <= 4 <= 6) by lia. destruct (P 4 H4) as [_ Hq]. apply Hq; [lia|]. cbn. auto. }
  split.
  { intros s Hs Hok. apply (trace_ok_app_inv ux_H s [_] _) in Hok. destruct Hok as (_ & Hm & _). cbn in Hm. lia. }
  exists {| d_at := 6; d_node := 2; d_src := FromChild 1 1%Z 1 |}.
  split; [right; left; reflexivity|]. cbn. lia.
Qed.
Print Assumptions C04b_quiescent_state_ends_protection.

(** the frozen-children hypothesis is needed: a store of a dangling pointer
    into the already obsolete node 1 (moment 3), which the reader then follows *)
Theorem C04b_frozen_needed :
  retire_unlinked ux_H2 ux_R2 /\ qsbr_safe ux_R2 /\ freed_via_retire ux_H2 ux_R2 /\
  in_period ux_R2 0 0 6 /\ trace_ok ux_H2 0 ux_trace2 /\ own_retire_later ux_R2 0 ux_trace2 /\
  ~ obsolete_children_frozen ux_H2 /\
  exists d, In d ux_trace2 /\ d_at d <= 6 /\ rc_freed ux_R2 (d_at d) (d_node d).
Proof.
  assert (RU : retire_unlinked ux_H2 ux_R2).
  { intros r t n t' (-> & _ & Hn) Hle Hl. apply ux_H2_linked in Hl. destruct Hl as [_ Hl]. specialize (Hl ltac:(lia)). lia. }
  assert (Q : qsbr_safe ux_R2).
  { intros r t n th u (-> & -> & Hn) Hne Hreg Hru Hnq Hf.
    cbn in Hreg. destruct Hreg as [-> | ->]; [|contradiction].
    destruct Hf as [(Hu & _) | ->]; [|lia].
    apply (Hnq 7); [lia|]. cbn. auto. }
  assert (FV : freed_via_retire ux_H2 ux_R2).
  { intros u n y Hf _ Hl. destruct Hf as [(Hu & Hn) | ->].
    - exists 3, 1. split; [lia|]. cbn. auto.
    - apply ux_H2_linked in Hl. lia. }
  (* ux_R2 differs from ux_R 3 8 7 in rc_freed only *)
  assert (P : in_period ux_R2 0 0 6) by (apply (ux_in_period 3 8 7); lia).
  pose proof (ux_own 3 8 7 ux_trace2 : own_retire_later ux_R2 0 ux_trace2) as Own.
  assert (X : exists d, In d ux_trace2 /\ d_at d <= 6 /\ rc_freed ux_R2 (d_at d) (d_node d)).
  { exists {| d_at := 5; d_node := 4; d_src := FromChild 1 9%Z 4 |}.
    split; [right; left; reflexivity|]. cbn. split; [lia | auto]. }
  repeat (split; [first [assumption | exact ux_trace2_ok]|]).
  split; [|exact X].
  intros F. destruct X as (d & Hin & Hle & Hf).
  exact (no_use_after_free ux_H2 ux_R2 0 0 6 ux_trace2 (Build_writers_discipline _ _ RU F) Q FV P ux_trace2_ok Own d Hin Hle Hf).
Qed.
Print Assumptions C04b_frozen_needed.
