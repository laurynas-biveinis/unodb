(** C05 — QSBR never frees memory another registered thread may still
    reference.  Coarse model: every API call atomic; any number of threads,
    any history respecting the API preconditions. *)
From Coq Require Import List ZArith Bool.
From Unodb Require Import Qsbr.QsbrModel Qsbr.QsbrRun Qsbr.QsbrProofs.
Import ListNotations.
Local Open Scope Z_scope.

(** pointers handed to deferred deallocation by a history *)
Definition retired (ops : list qop) : list ptr :=
  flat_map (fun o => match o with QRetire _ p => [p] | _ => [] end) ops.

(** Every block freed by any call of any history has an empty waiting set at
    that moment: no thread other than the requester that was registered when
    the request was made is still to pass a quiescent state, pause or exit.
    ([qrun] collects in its third component every (block, waiting set) freed
    with a non-empty waiting set.)  The history must not hand the same block
    to deferred deallocation twice (that is a caller-side double free, and
    the model's ghost waiting sets are keyed by block address; see
    [qrun_safe_needs_nodup] in QsbrProofs.v for the counterexample). *)
Theorem C05_safe_coarse : forall n ops s fs bads,
  qrun (qinit n) ops = Some (s, fs, bads) -> NoDup (retired ops) -> bads = [].
Proof. exact qrun_safe. Qed.
Print Assumptions C05_safe_coarse.

(** Only when at most one thread is registered may a request be executed at
    once (inside the retire call itself). *)
Theorem C05_immediate : forall n ops s fs bads t p,
  qrun (qinit n) ops = Some (s, fs, bads) -> op_enabled s (QRetire t p) = true ->
  ~ In p (pending s) -> In p (snd (q_retire s t p)) -> registered_count s <= 1.
Proof. exact immediate_only_single. Qed.
Print Assumptions C05_immediate.

Example C05_nonvacuous :
  exists s fs, qrun (qinit 3)
     [QRegister 0%nat; QRegister 1%nat; QRetire 0%nat 7; QQuiescent 1%nat; QQuiescent 0%nat; QQuiescent 1%nat;
      QQuiescent 0%nat; QQuiescent 0%nat] = Some (s, fs, []) /\ In [7] fs.
Proof. eexists. eexists. split; [vm_compute; reflexivity|]. cbn. tauto. Qed.
