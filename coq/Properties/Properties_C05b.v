(** C05b — tie of the QSBR model's (epoch, T, P) arithmetic to the source: the
    static functions of [qsbr_state] and [qsbr_epoch::advance] (qsbr.hpp),
    translated on every run into Gen/GenQsbrState.v, compute on the packed
    64-bit word exactly what Qsbr/QsbrModel.v computes on (q_ep, q_T, q_P).

    [word_fields w] = (epoch, T, P) = (bits 62..63, bits 32..61, bits 0..29);
    [word_make e t p] is the word with these fields and bits 30..31 clear;
    [qword s] = [word_make (q_ep s) (q_T s) (q_P s)].  The range hypotheses are
    the UNODB_DETAIL_ASSERTs written inside the C++ functions. *)
From Coq Require Import List ZArith Bool.
From Unodb Require Import Gen.GenQsbrState Qsbr.QsbrModel Qsbr.QsbrWordBridge.
Import ListNotations.
Local Open Scope Z_scope.

(** the constants of the header are the layout of [word_fields] *)
Theorem C05b_layout :
  qs_epoch_in_word_offset = 62 /\ qs_thread_count_in_word_offset = 32 /\
  qs_max_qsbr_threads = max_threads /\ qs_thread_count_mask = Z.ones 30 /\
  qs_threads_in_previous_epoch_in_word_mask = Z.ones 30 /\
  qs_thread_count_in_word_mask = Z.shiftl (Z.ones 30) 32 /\
  qs_one_thread_in_count = 2 ^ 32 /\ qs_one_thread_and_one_in_previous = 2 ^ 32 + 1 /\
  qe_max = 3 /\ qe_max_count = 4.
Proof. exact layout_constants. Qed.
Print Assumptions C05b_layout.

(** [word_make] and [word_fields] are inverse on fields in range, and such words satisfy [assert_invariants] *)
Theorem C05b_view : forall e t p, fields_ok e t p ->
  word64 (word_make e t p) /\ word_fields (word_make e t p) = (e, t, p).
Proof. exact fields_make. Qed.
Print Assumptions C05b_view.

Theorem C05b_view_wf : forall e t p, fields_ok e t p -> word_wf (word_make e t p).
Proof. exact make_wf. Qed.
Print Assumptions C05b_view_wf.

(** qsbr_epoch::advance() is the model's [ep_adv] *)
Theorem C05b_epoch_advance : forall e, 0 <= e <= 3 -> qe_advance qe_advance_default_by e = ep_adv e.
Proof. exact bridge_epoch_advance. Qed.
Print Assumptions C05b_epoch_advance.

(** getters, on any 64-bit word and in particular on [word_make e t p] *)
Theorem C05b_getters : forall w e t p, word64 w -> word_fields w = (e, t, p) ->
  qs_get_epoch w = e /\ qs_get_thread_count w = t /\ qs_get_threads_in_previous_epoch w = p /\
  qs_single_thread_mode w = (t <? 2).
Proof. exact bridge_getters. Qed.
Print Assumptions C05b_getters.

Theorem C05b_getters_make : forall e t p, fields_ok e t p ->
  qs_get_epoch (word_make e t p) = e /\ qs_get_thread_count (word_make e t p) = t /\
  qs_get_threads_in_previous_epoch (word_make e t p) = p /\
  qs_single_thread_mode (word_make e t p) = (t <? 2).
Proof. exact bridge_getters_make. Qed.
Print Assumptions C05b_getters_make.

Theorem C05b_make_from_epoch : forall e, 0 <= e <= 3 -> qs_make_from_epoch e = word_make e 0 0.
Proof. exact bridge_make_from_epoch. Qed.
Print Assumptions C05b_make_from_epoch.

(** the updates, on any 64-bit word with fields (e, t, p) *)
Theorem C05b_updates :
  (forall w e t p, word64 w -> word_fields w = (e, t, p) -> t + 1 <= max_threads ->
     word64 (qs_inc_thread_count w) /\ word_fields (qs_inc_thread_count w) = (e, t + 1, p)) /\
  (forall w e t p, word64 w -> word_fields w = (e, t, p) -> 0 < t ->
     word64 (qs_dec_thread_count w) /\ word_fields (qs_dec_thread_count w) = (e, t - 1, p)) /\
  (forall w e t p, word64 w -> word_fields w = (e, t, p) -> t + 1 <= max_threads -> p + 1 <= max_threads ->
     word64 (qs_inc_thread_count_and_threads_in_previous_epoch w) /\
     word_fields (qs_inc_thread_count_and_threads_in_previous_epoch w) = (e, t + 1, p + 1)) /\
  (forall w e t p, word64 w -> word_fields w = (e, t, p) -> 0 < t -> 0 < p ->
     word64 (qs_dec_thread_count_and_threads_in_previous_epoch w) /\
     word_fields (qs_dec_thread_count_and_threads_in_previous_epoch w) = (e, t - 1, p - 1)) /\
  (forall w e t p, word64 w -> word_fields w = (e, t, p) ->
     word64 (qs_inc_epoch_reset_previous w) /\ word_fields (qs_inc_epoch_reset_previous w) = (ep_adv e, t, t)) /\
  (forall w e t p, word64 w -> word_fields w = (e, t, p) -> 0 < t ->
     word64 (qs_inc_epoch_dec_thread_count_reset_previous w) /\
     word_fields (qs_inc_epoch_dec_thread_count_reset_previous w) = (ep_adv e, t - 1, t - 1)) /\
  (forall w b, qs_dec_thread_count_threads_in_previous_epoch_maybe_advance w b =
     if b then qs_inc_epoch_dec_thread_count_reset_previous w
     else qs_dec_thread_count_and_threads_in_previous_epoch w).
Proof.
  exact (conj bridge_inc_thread_count (conj bridge_dec_thread_count (conj bridge_inc_both (conj bridge_dec_both
        (conj bridge_inc_epoch_reset_previous (conj bridge_inc_epoch_dec_thread_count_reset_previous
        bridge_maybe_advance)))))).
Qed.
Print Assumptions C05b_updates.

(** the two epoch-changing functions return words with clear unused bits *)
Theorem C05b_epoch_change_words :
  (forall w e t p, word64 w -> word_fields w = (e, t, p) ->
     qs_inc_epoch_reset_previous w = word_make (ep_adv e) t t) /\
  (forall w e t p, word64 w -> word_fields w = (e, t, p) -> 0 < t ->
     qs_inc_epoch_dec_thread_count_reset_previous w = word_make (ep_adv e) (t - 1) (t - 1)).
Proof. exact (conj inc_epoch_reset_previous_make inc_epoch_dec_thread_count_reset_previous_make). Qed.
Print Assumptions C05b_epoch_change_words.

(** the asserted postconditions of [inc_epoch_reset_previous], through the generated getters *)
Theorem C05b_inc_epoch_asserts : forall w, word_wf w -> qs_get_threads_in_previous_epoch w = 0 ->
  let r := qs_inc_epoch_reset_previous w in
  word_wf r /\ qs_get_epoch r = qe_advance qe_advance_default_by (qs_get_epoch w) /\
  qs_get_thread_count r = qs_get_thread_count w /\ qs_get_threads_in_previous_epoch r = qs_get_thread_count r.
Proof. exact inc_epoch_reset_previous_asserts. Qed.
Print Assumptions C05b_inc_epoch_asserts.

(** every side condition the translator emitted (shift amounts in range) holds *)
Theorem C05b_defined : forall w e b,
  qe_get_val_defined e = true /\ qe_advance_defined qe_advance_default_by e = true /\
  qs_get_epoch_defined w = true /\ qs_get_thread_count_defined w = true /\
  qs_get_threads_in_previous_epoch_defined w = true /\ qs_single_thread_mode_defined w = true /\
  qs_make_from_epoch_defined e = true /\ qs_inc_thread_count_defined w = true /\ qs_dec_thread_count_defined w = true /\
  qs_inc_thread_count_and_threads_in_previous_epoch_defined w = true /\
  qs_dec_thread_count_and_threads_in_previous_epoch_defined w = true /\
  qs_inc_epoch_reset_previous_defined w = true /\ qs_inc_epoch_dec_thread_count_reset_previous_defined w = true /\
  qs_dec_thread_count_threads_in_previous_epoch_maybe_advance_defined w b = true.
Proof. exact bridge_defined. Qed.
Print Assumptions C05b_defined.

(** * the model's calls on the packed word *)

Theorem C05b_model_init : forall n, qword (qinit n) = 0 /\ qs_make_from_epoch 0 = 0.
Proof. exact model_init. Qed.
Print Assumptions C05b_model_init.

(** what the model reads from the state ([q_ep s], [q_T s <? 2], [q_P s]) is what the getters return *)
Theorem C05b_model_reads : forall s, q_fields_ok s ->
  qs_get_epoch (qword s) = q_ep s /\ qs_get_thread_count (qword s) = q_T s /\
  qs_get_threads_in_previous_epoch (qword s) = q_P s /\ qs_single_thread_mode (qword s) = (q_T s <? 2).
Proof. exact model_reads. Qed.
Print Assumptions C05b_model_reads.

(** register_thread *)
Theorem C05b_model_register : forall s t, q_fields_ok s -> q_T s + 1 <= max_threads ->
  qword (fst (q_register s t)) = qs_inc_thread_count_and_threads_in_previous_epoch (qword s).
Proof. exact model_register. Qed.
Print Assumptions C05b_model_register.

(** quiescent: fetch_sub(1) (= [qword s - 1], see [fields_fetch_sub_1]) and, for the last
    thread of the epoch, change_epoch's inc_epoch_reset_previous *)
Theorem C05b_model_quiescent : forall s t, q_fields_ok s -> 1 <= q_P s ->
  qword (fst (q_quiescent s t)) =
  if leaves_prev s t then (if 1 <? q_P s then qword s - 1 else qs_inc_epoch_reset_previous (qword s - 1))
  else qword s.
Proof. exact model_quiescent. Qed.
Print Assumptions C05b_model_quiescent.

Theorem C05b_fetch_sub : forall w e t p, word64 w -> word_fields w = (e, t, p) -> 0 < p ->
  word64 (w - 1) /\ word_fields (w - 1) = (e, t, p - 1).
Proof. exact fields_fetch_sub_1. Qed.
Print Assumptions C05b_fetch_sub.

(** unregister_thread *)
Theorem C05b_model_unregister : forall s t, q_fields_ok s -> 1 <= q_T s ->
  qword (fst (q_unregister s t)) =
  if q_P s =? 0 then qs_dec_thread_count (qword s)
  else if leaves_prev s t && (q_P s =? 1)
       then qs_dec_thread_count_threads_in_previous_epoch_maybe_advance (qword s) true
  else if leaves_prev s t
       then qs_dec_thread_count_threads_in_previous_epoch_maybe_advance (qword s) false
  else qs_dec_thread_count (qword s).
Proof. exact model_unregister. Qed.
Print Assumptions C05b_model_unregister.

(** the single-step epoch change on exit equals the two steps the repaired unregister_thread (commit a646b96) takes *)
Theorem C05b_unregister_two_steps : forall w e t, word64 w -> word_fields w = (e, t, 1) -> 0 < t ->
  qs_inc_epoch_dec_thread_count_reset_previous w =
  qs_dec_thread_count_and_threads_in_previous_epoch (qs_inc_epoch_reset_previous (w - 1)).
Proof. exact unregister_advance_two_steps. Qed.
Print Assumptions C05b_unregister_two_steps.

(** on_next_epoch_deallocate only reads the word *)
Theorem C05b_model_retire : forall s t p, qword (fst (q_retire s t p)) = qword s.
Proof. exact model_retire. Qed.
Print Assumptions C05b_model_retire.

(** non-vacuity: concrete words through the generated functions *)
Example C05b_nonvacuous :
  word_fields (qs_inc_epoch_reset_previous (word_make 3 5 0)) = (0, 5, 5) /\
  word_fields (qs_inc_thread_count_and_threads_in_previous_epoch (word_make 2 7 4)) = (2, 8, 5) /\
  word_fields (qs_dec_thread_count_threads_in_previous_epoch_maybe_advance (word_make 1 3 1) true) = (2, 2, 2) /\
  qs_get_thread_count 18446744073709551615 = max_threads /\ qs_get_epoch 18446744073709551615 = 3.
Proof. vm_compute. repeat split; reflexivity. Qed.
