(** C05c — safety of QSBR for ALL interleavings of the atomic accesses.

    Qsbr/QsbrFine.v is the fine-grained model of qsbr.hpp / qsbr.cpp: one step
    per atomic access of the state word and of the two orphan lists, validated
    as an acceptor against the traces of the real implementation.  The ghost
    [fbad s] records every free that happened while a thread that was
    registered (and outside quiescent()) when the block was retired had not
    since entered quiescent() / unregister.

    Proved here for every accepted event sequence from the initial state, for
    any number of threads, with the blocks retired pairwise distinct (the same
    hypothesis as the coarse theorem C05): no unsafe free; exactly once; the
    thread count of the state word.  The proof is by an inductive invariant
    [Inv] (Qsbr/QsbrFineInv.v) preserved by every step (QsbrFineStepA..C). *)
From Coq Require Import List ZArith Bool Permutation.
From Unodb Require Import Qsbr.QsbrModel Qsbr.QsbrFine Qsbr.QsbrFineInv Qsbr.QsbrFinePend Qsbr.QsbrFineProofs.
Import ListNotations.
Local Open Scope Z_scope.

(** the hypotheses, spelled out *)
Example C05c_distinct_retires_def : forall evs,
  distinct_retires evs <->
  NoDup (flat_map (fun e => match e with FRetire _ p => [p] | _ => [] end) evs).
Proof. intros. reflexivity. Qed.

Example C05c_init_ok_def : forall n e, fine_init_ok n e <-> 0 <= e < 4.
Proof. intros. reflexivity. Qed.

(** SAFETY for all interleavings *)
Theorem C05c_fine_safe : forall n e evs s, fine_init_ok n e ->
  frun (finit n e) evs = Some s -> distinct_retires evs -> fbad s = [].
Proof. exact fine_safe. Qed.
Print Assumptions C05c_fine_safe.

(** the inductive invariant holds in every reachable state *)
Theorem C05c_fine_invariant : forall n e evs s, fine_init_ok n e ->
  frun (finit n e) evs = Some s -> distinct_retires evs -> Inv s.
Proof. exact fine_reach_inv. Qed.
Print Assumptions C05c_fine_invariant.

(** one step: the invariant is preserved and only a safe free can happen *)
Theorem C05c_fine_step : forall s e s', Inv s -> fstep s e = Some s' ->
  (forall p, In p (ev_retired e) -> ~ In p (fpending s)) ->
  Inv s' /\ f_bad s' = f_bad s.
Proof. exact fstep_inv. Qed.
Print Assumptions C05c_fine_step.

(** EXACTLY ONCE (no hypothesis on the history): pending + freed = retired *)
Theorem C05c_fine_exactly_once : forall n e evs s,
  frun (finit n e) evs = Some s ->
  Permutation (fpending s ++ freed_of evs) (retired_of evs).
Proof. exact fine_exactly_once. Qed.
Print Assumptions C05c_fine_exactly_once.

Theorem C05c_fine_freed_nodup : forall n e evs s,
  frun (finit n e) evs = Some s -> distinct_retires evs -> NoDup (fpending s ++ freed_of evs).
Proof. exact fine_freed_nodup. Qed.
Print Assumptions C05c_fine_freed_nodup.

(** ... and in terms of the freed set of the final state, without re-allocation *)
Theorem C05c_fine_exactly_once_state : forall n e evs s,
  frun (finit n e) evs = Some s -> no_alloc evs ->
  Permutation (fpending s ++ f_freed s) (retired_of evs).
Proof. exact fine_exactly_once_state. Qed.
Print Assumptions C05c_fine_exactly_once_state.

(** THREAD COUNT at states where no thread is inside register / unregister *)
Theorem C05c_fine_thread_count : forall n e evs s, fine_init_ok n e ->
  frun (finit n e) evs = Some s -> distinct_retires evs ->
  (forall u, ft_pc (get_fthr s u) = PIdle \/ is_qr (ft_op (get_fthr s u)) = true) ->
  w_T (f_w s) = Z.of_nat (length (filter (fun x => t_reg (ft x)) (f_thr s))).
Proof. exact fine_thread_count. Qed.
Print Assumptions C05c_fine_thread_count.

(** non-vacuity: accepted example traces of QsbrFine.v satisfy the hypotheses *)
Example C05c_nonvacuous_1 :
  fine_init_ok 1 0 /\ distinct_retires ex_tr1 /\
  exists s, frun (finit 1 0) ex_tr1 = Some s /\ fbad s = [] /\ f_freed s = [100].
Proof.
  split; [cbv; intuition discriminate|]. split.
  - cbv. repeat constructor. intros [].
  - destruct (frun (finit 1 0) ex_tr1) as [s|] eqn:H; [|vm_compute in H; discriminate].
    exists s. split; [reflexivity|]. vm_compute in H. inversion H. split; reflexivity.
Qed.

Definition ex_tr3 : list fevent :=
  ex_tr2 ++ [FAlloc 1%nat 100; FCall 1%nat OpRetire 100; FRetire 1%nat 100; FCall 0%nat OpQuiescent 0].

Example C05c_nonvacuous_2 :
  fine_init_ok 2 0 /\ distinct_retires ex_tr3 /\
  exists s, frun (finit 2 0) ex_tr3 = Some s /\ fpending s = [100] /\ w_T (f_w s) = 2.
Proof.
  split; [cbv; intuition discriminate|]. split.
  - cbv. repeat constructor. intros [].
  - destruct (frun (finit 2 0) ex_tr3) as [s|] eqn:H; [|vm_compute in H; discriminate].
    exists s. split; [reflexivity|]. vm_compute in H. inversion H. split; reflexivity.
Qed.
