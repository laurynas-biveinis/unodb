(** C06 — every deferred deallocation runs exactly once; thread count exact;
    drained after two quiescent states of the last thread. *)
From Coq Require Import List ZArith Bool Permutation.
From Unodb Require Import Qsbr.QsbrModel Qsbr.QsbrRun Qsbr.QsbrDrain.
Import ListNotations.
Local Open Scope Z_scope.

(** pointers handed to deferred deallocation by a history *)
Definition retired (ops : list qop) : list ptr :=
  flat_map (fun o => match o with QRetire _ p => [p] | _ => [] end) ops.

(** Exactly once: if the history retires pairwise distinct pointers, then what
    is still pending anywhere (per-thread lists, orphan lists) plus everything
    freed so far is a permutation of what was retired -- nothing lost, nothing
    freed twice -- whether the requester kept running, paused or exited. *)
Theorem C06_exactly_once : forall n ops s fs bads,
  qrun (qinit n) ops = Some (s, fs, bads) -> NoDup (retired ops) ->
  Permutation (pending s ++ concat fs) (retired ops).
Proof. intros n ops s fs bads H _. exact (qrun_exactly_once n ops s fs bads H). Qed.
Print Assumptions C06_exactly_once.

(** The registered-thread count in the state word equals the number of
    threads registered-or-resumed and not yet paused-or-exited, and the
    in-previous-epoch count never exceeds it. *)
Theorem C06_thread_count : forall n ops s fs bads,
  qrun (qinit n) ops = Some (s, fs, bads) -> q_T s = registered_count s /\ 0 <= q_P s <= q_T s.
Proof. exact qrun_thread_count. Qed.
Print Assumptions C06_thread_count.

(** Once all but one thread have unregistered, two further quiescent states
    of the remaining thread leave no request pending anywhere. *)
Theorem C06_drain : forall n ops s fs bads t,
  qrun (qinit n) ops = Some (s, fs, bads) -> registered_count s = 1 -> op_enabled s (QQuiescent t) = true ->
  pending (fst (qstep (fst (qstep s (QQuiescent t))) (QQuiescent t))) = [].
Proof. exact drain_two_quiescent. Qed.
Print Assumptions C06_drain.
