(** C07 — optimistic lock: validated reads consistent, writers exclusive,
    obsolete final.  Over every event sequence the acceptor [lrun] accepts
    from the initial state: any number of threads, any length. *)
From Coq Require Import List ZArith Bool.
From Unodb Require Import Lock.LockModel Lock.LockProofs Lock.LockBridge Gen.GenLockWord.
Import ListNotations.
Local Open Scope Z_scope.

(** at most one write guard is active, and exactly when the write bit is set *)
Theorem C07_exclusive : forall n tr s, lrun (linit n) tr = Some s ->
  (length (guards s) <= 1)%nat /\ (guards s <> [] <-> w_is_write_locked (lw s) = true).
Proof. intros n tr s H. apply exclusive, (reach_inv _ _ _ H). Qed.
Print Assumptions C07_exclusive.

(** a section opened at a free word v (state s0) whose later check/unlock
    sees v again (state s2) did not overlap any write-locked period: in every
    state in between the word is v, nobody holds the guard and the protected
    words are those of s0 *)
Theorem C07_snapshot : forall n p s0 m s2 v,
  lrun (linit n) p = Some s0 -> lw s0 = v -> w_is_free v = true -> lrun s0 m = Some s2 -> lw s2 = v ->
  Forall (fun s => lw s = v /\ lmem s = lmem s0 /\ guards s = []) (lstates s0 m).
Proof. exact snapshot. Qed.
Print Assumptions C07_snapshot.

Theorem C07_snapshot_loads : forall n p s0 m1 t i x m2 s2 v,
  lrun (linit n) p = Some s0 -> lw s0 = v -> w_is_free v = true ->
  lrun s0 (m1 ++ ELoad t i x :: m2) = Some s2 -> lw s2 = v ->
  nth_error (lmem s0) i = Some x.
Proof. intros n p s0 m1 t i x m2 s2 v H. apply snapshot_loads, (reach_inv _ _ _ H). Qed.
Print Assumptions C07_snapshot_loads.

(** an upgrade succeeds only if no writer acquired the lock since the section was opened *)
Theorem C07_upgrade : forall n p s0 m s1 t v s2,
  lrun (linit n) p = Some s0 -> lw s0 = v -> w_is_free v = true ->
  lrun s0 m = Some s1 -> lstep s1 (EUpgrade t v true) = Some s2 ->
  upgrades m = O /\ lmem s1 = lmem s0.
Proof. intros n p s0 m s1 t v s2 H. apply upgrade_exclusive, (reach_inv _ _ _ H). Qed.
Print Assumptions C07_upgrade.

(** once obsolete: the word stays obsolete and nobody holds or acquires the
    guard any more, no section opens, every open section fails its next check,
    no upgrade succeeds.  (The fields of an obsolete node may still be stored
    to -- the implementation finishes unlinking a replaced node after
    write_unlock_and_obsolete -- but by C07_obsolete_rejects no reader can
    open or validate a section on it, so those stores are never observed.) *)
Theorem C07_obsolete_final : forall n p s0 m s1,
  lrun (linit n) p = Some s0 -> lw s0 = 1 -> lrun s0 m = Some s1 -> lw s1 = 1 /\ guards s1 = [].
Proof. intros n p s0 m s1 H. apply obsolete_final, (reach_inv _ _ _ H). Qed.
Print Assumptions C07_obsolete_final.

Theorem C07_obsolete_rejects : forall n p s0 e s1,
  lrun (linit n) p = Some s0 -> lw s0 = 1 -> lstep s0 e = Some s1 ->
  match e with
  | ERLock _ obs => rlock_opens obs = false /\ rlock_fails obs = true
  | ECheck _ v obs => w_is_free v = true -> check_ok v obs = false
  | EUpgrade _ _ ok => ok = false
  | EWUnlock _ _ | EWObsolete _ => False
  | EStore _ _ _ | ELoad _ _ _ | ESpin _ => True
  end.
Proof. intros n p s0 e s1 H. apply obsolete_rejects, (reach_inv _ _ _ H). Qed.
Print Assumptions C07_obsolete_rejects.

(** fewer than 2^62 write acquisitions: the 64-bit word never wraps *)
Theorem C07_no_wrap : forall n tr s, lrun (linit n) tr = Some s -> Z.of_nat (upgrades tr) < 2 ^ 62 -> 0 <= lw s < 2 ^ 64.
Proof. exact no_wrap. Qed.
Print Assumptions C07_no_wrap.

(** tie to the source: the word functions of optimistic_lock.hpp *)
Theorem C07_bridge :
  (forall v, word64 v -> lw_is_free v = w_is_free v) /\
  (forall v, word64 v -> lw_is_write_locked v = w_is_write_locked v) /\
  (forall v, lw_is_obsolete v = w_is_obsolete v) /\
  (forall v, word64 v -> v + 2 < 2 ^ 64 -> lw_set_locked_bit v = w_set_locked v) /\
  (forall v, word64 v -> v + 2 < 2 ^ 64 -> lw_write_unlock_word v = v + 2) /\
  lw_obsolete_word = w_obsolete.
Proof.
  exact (conj bridge_is_free (conj bridge_is_write_locked (conj bridge_is_obsolete
        (conj bridge_set_locked_bit (conj bridge_write_unlock bridge_obsolete_word))))).
Qed.
Print Assumptions C07_bridge.

(** non-vacuity: a trace with a validated read, an upgrade, a write and an obsoletion is accepted *)
Example C07_nonvacuous :
  exists s, lrun (linit 2)
    [ERLock 1%nat 0; ELoad 1%nat O 0; ECheck 1%nat 0 0; ERLock 2%nat 0; EUpgrade 2%nat 0 true; EStore 2%nat O 7;
     ERLock 1%nat 2; ESpin 1%nat; EWUnlock 2%nat 4; ERLock 1%nat 4; EUpgrade 1%nat 4 true; EWObsolete 1%nat; ECheck 2%nat 4 1]
    = Some s /\ lw s = 1.
Proof. eexists. split; [vm_compute; reflexivity|reflexivity]. Qed.
