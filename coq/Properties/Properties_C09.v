(** C09 — concurrent scans stay ordered, bounded and complete for stable keys
    (the abstract theorem; see Olc/ScanSpec.v for the query model). *)
From Coq Require Import List ZArith Bool Sorted Lia.
From Unodb Require Import Olc.ScanSpec Olc.ScanChain.
Import ListNotations.
Local Open Scope Z_scope.

(** delivered keys are strictly increasing and all >= the bound *)
Theorem C09_ordered_bounded : forall H t lo ds, scan_fwd H t lo ds ->
  StronglySorted Z.lt (keys_of ds) /\ Forall (fun k => lo <= k) (keys_of ds).
Proof. exact scan_ordered_bounded. Qed.
Print Assumptions C09_ordered_bounded.

(** each delivered key carries a value it held at some moment during the scan *)
Theorem C09_values_held : forall H t lo ds, scan_fwd H t lo ds ->
  Forall (fun d => (t <= fst (fst d))%nat /\ H (fst (fst d)) (snd (fst d)) = Some (snd d)) ds.
Proof. exact scan_values_held. Qed.
Print Assumptions C09_values_held.

(** a key that is absent at every moment is never delivered *)
Theorem C09_no_phantom : forall H t lo ds k, scan_fwd H t lo ds ->
  (forall t', H t' k = None) -> ~ In k (keys_of ds).
Proof. intros H t lo ds k S. exact (scan_no_phantom H t lo ds S k). Qed.
Print Assumptions C09_no_phantom.

(** completeness for stable keys: a key >= the bound that is present at every
    moment from the start of the scan to its last query, and not beyond the
    last delivered key, is delivered (exactly once, by strict order) *)
Theorem C09_complete_prefix : forall H t lo ds k,
  scan_fwd H t lo ds -> lo <= k -> k < final_bound lo ds ->
  (forall t', (t <= t' <= last_moment t ds)%nat -> H t' k <> None) -> In k (keys_of ds).
Proof. intros H t lo ds k S. exact (scan_complete_prefix H t lo ds S k). Qed.
Print Assumptions C09_complete_prefix.

(** ... and when the scan ran to completion every stable key of the interval is delivered *)
Theorem C09_complete : forall H t lo ds te k,
  scan_fwd H t lo ds -> (last_moment t ds <= te)%nat -> exhausted H te (final_bound lo ds) ->
  lo <= k -> (forall t', (t <= t' <= te)%nat -> H t' k <> None) -> In k (keys_of ds).
Proof. intros H t lo ds te k S. exact (scan_complete H t lo ds S te k). Qed.
Print Assumptions C09_complete.

Example C09_nonvacuous :
  exists H, scan_fwd H 0 5 [(1%nat, 7, 70); (3%nat, 9, 91)] /\ exhausted H 4 10.
Proof.
  exists (fun t k => if (k =? 7) then (if (t <=? 2)%nat then Some 70 else None)
                     else if (k =? 9) then Some (if (t <=? 2)%nat then 90 else 91)
                     else if (k =? 8) then (if (t <=? 0)%nat then Some 80 else None) else None).
  split.
  - apply sf_cons with (t1 := 1%nat); [lia| |reflexivity|].
    + unfold least_ge. cbn. split; [lia|]. split; [discriminate|]. intros k' A B.
      destruct (k' =? 7) eqn:E7; [lia|]. destruct (k' =? 9) eqn:E9; [lia|]. destruct (k' =? 8) eqn:E8; [lia|reflexivity].
    + apply sf_cons with (t1 := 3%nat); [lia| |reflexivity|apply sf_nil].
      unfold least_ge. cbn. split; [lia|]. split; [discriminate|]. intros k' A B.
      destruct (k' =? 7) eqn:E7; [reflexivity|]. destruct (k' =? 9) eqn:E9; [lia|]. destruct (k' =? 8) eqn:E8; reflexivity.
  - unfold exhausted. intros k Hk. cbn.
    destruct (k =? 7) eqn:E7; [reflexivity|]. destruct (k =? 9) eqn:E9; [lia|]. destruct (k =? 8) eqn:E8; reflexivity.
Qed.
