(** C09c -- one step of the OLC iterator (olc_db::iterator, forward) is an
    interval successor query on the tree, and an iterator run (seek, then
    next calls that succeed directly or fall back to seek) is a chain of such
    queries: ordered, bounded, without phantoms, complete for stable keys.

    The atomic reading ("successor in the tree as it is at ONE moment") is
    false for this iterator (see the header of Olc/IterProofs.v); it does
    hold for the steps that end the scan and for a seek that lands on its
    leaf directly. *)
From Coq Require Import List ZArith Bool Arith Sorted Lia.
From Unodb Require Import Base.Lex Lock.LockModel Olc.ReadModel Olc.IterModel Olc.IterAux Olc.IterProofs Olc.IterSeek
  Olc.ScanChain Olc.IterScan Olc.IterExample Olc.IterCounter.
Import ListNotations.
Local Open Scope Z_scope.

(** a successful try_next from key k that delivers (k', v'): within
    [t0, lock moment of the new leaf], (k', v') is in the tree at some moment,
    k < k', every key strictly between is absent at some moment; the new
    position satisfies the stack invariant again *)
Theorem C09c_next_step : forall H pos t0 pops pv tc b' c' rest hs a q k' v',
  disciplined H -> stays_reachable H -> fullpath_stable H -> wf_history H -> pos_ok H pos ->
  next_some H pos t0 pops pv tc b' c' rest hs a q k' v' ->
  (t0 <= h_lock a)%nat /\ wquery H t0 (h_lock a) true (ip_key pos) (Some (k', v')) /\
  pos_ok H (next_pos pv b' c' rest hs a k' v').
Proof. exact next_succ_some. Qed.
Print Assumptions C09c_next_step.

(** a successful try_next that empties the stack: atomic at t0 *)
Theorem C09c_next_end : forall H pos t0 pops,
  disciplined H -> stays_reachable H -> fullpath_stable H -> wf_history H -> pos_ok H pos ->
  next_none H pos t0 pops -> succ_query (H t0) (ip_key pos) None.
Proof. exact next_succ_none. Qed.
Print Assumptions C09c_next_end.

(** a successful forward seek (all endings of try_seek with fwd = true) *)
Theorem C09c_seek : forall H, disciplined H -> stays_reachable H -> fullpath_stable H -> wf_history H ->
  forall lo rl t1 t2 pos, seek_result H lo rl t1 t2 pos ->
  (rl <= t1 <= t2)%nat /\ pos_ok H pos /\ wquery H t1 t2 false lo (Some (ip_key pos, ip_val pos)).
Proof. exact seek_result_ok. Qed.
Print Assumptions C09c_seek.

Theorem C09c_seek_end : forall H, disciplined H -> stays_reachable H -> fullpath_stable H -> wf_history H ->
  forall lo rl T, seek_end H lo rl T -> (rl <= T)%nat /\ first_query (H T) false lo None.
Proof. exact seek_end_ok. Qed.
Print Assumptions C09c_seek_end.

(** the seek that lands on a leaf >= lo is an atomic query *)
Theorem C09c_seek_hit_atomic : forall H lo rl rw rc n0 hs a q k' v',
  disciplined H -> stays_reachable H -> fullpath_stable H -> wf_history H ->
  seek_down H lo rl rw rc n0 hs a q -> h_cont a = CLeaf k' v' -> lex_le lo k' ->
  (rl <= h_lock a)%nat /\ first_query (H (h_lock a)) false lo (Some (k', v')).
Proof. exact seek_hit_query. Qed.
Print Assumptions C09c_seek_hit_atomic.

(** try_first *)
Theorem C09c_first : forall H rl rw rc n0 hs a q k v,
  disciplined H -> stays_reachable H -> fullpath_stable H -> wf_history H ->
  first_down H rl rw rc n0 hs a q k v ->
  (rl <= h_lock a)%nat /\ wquery H rl (h_lock a) false [] (Some (k, v)) /\
  (hs <> [] -> pos_ok H (seek_pos hs a k v)).
Proof. exact first_down_query. Qed.
Print Assumptions C09c_first.

(** an iterator scan is a chain of interval queries *)
Theorem C09c_scan_is_chain : forall H, disciplined H -> stays_reachable H -> fullpath_stable H -> wf_history H ->
  forall t lo ds e, iter_scan H t lo ds e -> wscan H t false lo ds /\ run_end H t false lo ds e.
Proof. exact iter_scan_wscan. Qed.
Print Assumptions C09c_scan_is_chain.

(** ** The scan theorems for chains of interval queries *)

Theorem C09c_ordered_bounded : forall H t s lo ds, wscan H t s lo ds ->
  StronglySorted lex_lt (wkeys ds) /\ Forall (above s lo) (wkeys ds).
Proof. intros H t s lo ds S. exact (qchain_ordered_bounded lex_lt_trans (wscan_qchain S) (dbound_up Fwd s lo)). Qed.
Print Assumptions C09c_ordered_bounded.

Theorem C09c_values_held : forall H t s lo ds, wscan H t s lo ds ->
  Forall (fun d : delivery => let '(t1, t2, k, v) := d in
            (t <= t1)%nat /\ exists T, (t1 <= T <= t2)%nat /\ entry (H T) k v) ds.
Proof. intros H t s lo ds S. exact (qchain_values_held (wscan_qchain S)). Qed.
Print Assumptions C09c_values_held.

Theorem C09c_no_phantom : forall H t s lo ds k, wscan H t s lo ds ->
  (forall t', ~ has_key (H t') k) -> ~ In k (wkeys ds).
Proof. intros H t s lo ds k S. exact (qchain_no_phantom k (wscan_qchain S)). Qed.
Print Assumptions C09c_no_phantom.

Theorem C09c_complete_prefix : forall H t s lo ds k, wscan H t s lo ds ->
  above s lo k -> ~ above (fst (wfinal_bound s lo ds)) (snd (wfinal_bound s lo ds)) k ->
  (forall t', (t <= t' <= wlast_moment t ds)%nat -> has_key (H t') k) -> In k (wkeys ds).
Proof.
  intros H t s lo ds k S. rewrite <- wfinal_cfinal.
  exact (qchain_complete_prefix lex_trichotomy k (wscan_qchain S)).
Qed.
Print Assumptions C09c_complete_prefix.

Theorem C09c_complete : forall H t s lo ds te1 te2 k, wscan H t s lo ds ->
  (wlast_moment t ds <= te1 <= te2)%nat -> wexhausted H te1 te2 (wfinal_bound s lo ds) ->
  above s lo k -> (forall t', (t <= t' <= te2)%nat -> has_key (H t') k) -> In k (wkeys ds).
Proof.
  intros H t s lo ds te1 te2 k S. unfold wexhausted, wquery. rewrite <- wfinal_cfinal.
  exact (qchain_complete lex_lt_irrefl lex_lt_trans lex_trichotomy te1 te2 k (wscan_qchain S) (dbound_decidable Fwd s lo)).
Qed.
Print Assumptions C09c_complete.

(** ** End to end: an iterator scan of the tree *)

(** keys come out in strictly increasing byte-wise order, all >= lo; every
    delivered entry was in the tree during its step; a key that is in the
    tree throughout the scan, >= lo and not beyond the last delivered key, is
    delivered; and if the scan ran to the end, every such key >= lo *)
Theorem C09c_iterator_scan : forall H, disciplined H -> stays_reachable H -> fullpath_stable H -> wf_history H ->
  forall t lo ds e, iter_scan H t lo ds e ->
  StronglySorted lex_lt (wkeys ds) /\ Forall (lex_le lo) (wkeys ds) /\
  Forall (fun d : delivery => let '(t1, t2, k, v) := d in
            (t <= t1)%nat /\ exists T, (t1 <= T <= t2)%nat /\ entry (H T) k v) ds /\
  (forall k, lex_le lo k -> ~ above (fst (wfinal_bound false lo ds)) (snd (wfinal_bound false lo ds)) k ->
     (forall t', (t <= t' <= wlast_moment t ds)%nat -> has_key (H t') k) -> In k (wkeys ds)) /\
  (forall te k, e = Some te -> lex_le lo k ->
     (forall t', (t <= t' <= te)%nat -> has_key (H t') k) -> In k (wkeys ds)).
Proof.
  intros H Hd Hs Hfp W t lo ds e S.
  destruct (iter_scan_wscan H Hd Hs Hfp W t lo ds e S) as [Sc En].
  destruct (wscan_scan H t false lo ds e Sc En) as (O & B & V & _ & P & C).
  exact (conj O (conj B (conj V (conj P C)))).
Qed.
Print Assumptions C09c_iterator_scan.

(** ** Non-vacuity: a writer inserts [2;9] at moment 14, during the third
    step of a scan from [1;0] that delivers [1;1], [1;3], [2;7] *)
Example C09c_nonvacuous :
  disciplined Hx /\ stays_reachable Hx /\ fullpath_stable Hx /\ wf_history Hx /\
  iter_scan Hx 0 [1; 0] [(3%nat, 5%nat, [1; 1], [110]); (8%nat, 9%nat, [1; 3], [130]); (12%nat, 17%nat, [2; 7], [270])] None /\
  ~ has_key (Hx 13%nat) [2; 9] /\ has_key (Hx 14%nat) [2; 9].
Proof.
  split; [exact Hx_disciplined|]. split; [exact Hx_stays_reachable|]. split; [exact Hx_fullpath|].
  split; [exact Hx_wf|]. split; [exact x_scan | exact x_writer].
Qed.
Print Assumptions C09c_nonvacuous.

(** ** The atomic reading is false: a history that satisfies every condition,
    a successful try_next from "11" delivering "20" (so the interval query
    holds), and no moment at which "20" is the successor of "11" *)
Theorem C09c_step_not_atomic :
  disciplined Hc /\ stays_reachable Hc /\ fullpath_stable Hc /\ wf_history Hc /\ pos_ok Hc posc /\
  next_some Hc posc 1 [(ec1, 2%nat)] ec0 8 2 2%nat [] [ic2] ac [2; 0] [2; 0] [200] /\
  wquery Hc 1 6 true [1; 1] (Some ([2; 0], [200])) /\
  forall T, ~ succ_query (Hc T) [1; 1] (Some ([2; 0], [200])).
Proof.
  split; [exact Hc_disciplined|]. split; [exact Hc_stays_reachable|]. split; [exact Hc_fullpath|].
  split; [exact Hc_wf|]. split; [exact posc_ok|]. split; [exact stepc|].
  split; [exact stepc_interval | exact step_not_atomic].
Qed.
Print Assumptions C09c_step_not_atomic.
