(** C09d -- the REVERSE direction of the OLC iterator (try_prior, try_last,
    try_seek with fwd = false, prior() with its re-seek fallback, the reverse
    branches of scan / scan_from / scan_range), and, for both directions, a
    root pointer that points to a leaf or is null.

    One reverse step is an interval PREDECESSOR query on the tree, a reverse
    iterator run is a chain of such queries: keys strictly decreasing, inside
    the interval, each with a value held during its step, no phantoms,
    complete for keys that are stable during the scan.  As in the forward
    direction (C09c) the atomic reading of a step is false
    ([C09d_step_not_atomic]); it holds for the steps that end the scan and for
    a seek that lands on its leaf directly - in particular whenever the seek
    reports [match] ([C09d_seek_match_atomic]).

    Root leaf: every step on a one-entry tree is atomic at the moment the
    leaf was read-locked under the root pointer's section; the end that
    try_next / try_prior report after re-validating the leaf later is the
    answer of the tree of THAT earlier moment, not of the moment of the
    re-validation ([C09d_root_leaf_end_not_at_revalidation]). *)
From Coq Require Import List ZArith Bool Arith Sorted Lia.
From Unodb Require Import Base.Lex Lock.LockModel Olc.ReadModel Olc.IterModel Olc.IterAux Olc.IterProofs Olc.IterSeek
  Olc.ScanChain Olc.IterScan Olc.IterExample Olc.IterRevModel Olc.IterRevProofs Olc.IterRevSeek Olc.IterRevScan
  Olc.IterRevCounter Olc.IterLeafModel Olc.IterLeafExample.
Import ListNotations.
Local Open Scope Z_scope.

(** ** Reverse steps *)

(** a successful try_prior from key k that delivers (k', v'): within
    [t0, lock moment of the new leaf], (k', v') is in the tree at some moment,
    k' < k, every key strictly between is absent at some moment; the new
    position satisfies the stack invariant again *)
Theorem C09d_prior_step : forall H pos t0 pops pv tc b' c' rest hs a q k' v',
  disciplined H -> stays_reachable H -> fullpath_stable H -> wf_history H -> pos_ok H pos ->
  prior_some H pos t0 pops pv tc b' c' rest hs a q k' v' ->
  (t0 <= h_lock a)%nat /\ rquery H t0 (h_lock a) (UKey true (ip_key pos)) (Some (k', v')) /\
  pos_ok H (prior_pos pv b' c' rest hs a k' v').
Proof. exact prior_pred_some. Qed.
Print Assumptions C09d_prior_step.

(** a successful try_prior that empties the stack: atomic at t0 *)
Theorem C09d_prior_end : forall H pos t0 pops,
  disciplined H -> stays_reachable H -> fullpath_stable H -> wf_history H -> pos_ok H pos ->
  prior_none H pos t0 pops -> pred_query (H t0) (ip_key pos) None.
Proof. exact prior_pred_none. Qed.
Print Assumptions C09d_prior_end.

(** a successful reverse seek (all endings of try_seek with fwd = false,
    the root pointer may point to a leaf) *)
Theorem C09d_seek : forall H, disciplined H -> stays_reachable H -> fullpath_stable H -> wf_history H ->
  forall hi rl t1 t2 pos, rseek_result H hi rl t1 t2 pos ->
  (rl <= t1 <= t2)%nat /\ t2 = ip_at pos /\ gpos_ok H pos /\
  rquery H t1 t2 (UKey false hi) (Some (ip_key pos, ip_val pos)).
Proof. exact rseek_result_ok. Qed.
Print Assumptions C09d_seek.

Theorem C09d_seek_end : forall H, disciplined H -> stays_reachable H -> fullpath_stable H -> wf_history H ->
  forall hi rl T, rseek_end H hi rl T -> (rl <= T)%nat /\ last_query (H T) (UKey false hi) None.
Proof. exact rseek_end_ok. Qed.
Print Assumptions C09d_seek_end.

(** the seek that lands on a leaf <= hi is an atomic query *)
Theorem C09d_seek_hit_atomic : forall H hi rl rw rc n0 hs a q k' v',
  disciplined H -> stays_reachable H -> fullpath_stable H -> wf_history H ->
  seek_down H hi rl rw rc n0 hs a q -> h_cont a = CLeaf k' v' -> lex_le k' hi ->
  (rl <= h_lock a)%nat /\ last_query (H (h_lock a)) (UKey false hi) (Some (k', v')).
Proof. exact rseek_hit_query. Qed.
Print Assumptions C09d_seek_hit_atomic.

(** when the key found is the search key ([match]), the seek was a direct hit *)
Theorem C09d_seek_match_atomic : forall H, disciplined H -> stays_reachable H -> fullpath_stable H -> wf_history H ->
  forall hi rl t1 t2 pos, rseek_result H hi rl t1 t2 pos -> ip_key pos = hi ->
  t1 = t2 /\ last_query (H t1) (UKey false hi) (Some (ip_key pos, ip_val pos)).
Proof. exact rseek_match_atomic. Qed.
Print Assumptions C09d_seek_match_atomic.

(** try_last *)
Theorem C09d_last : forall H rl rw rc n0 hs a q k v,
  disciplined H -> stays_reachable H -> fullpath_stable H -> wf_history H ->
  last_down H rl rw rc n0 hs a q k v ->
  (rl <= h_lock a)%nat /\ rquery H rl (h_lock a) UInf (Some (k, v)) /\ gpos_ok H (seek_pos hs a k v).
Proof. exact last_down_query. Qed.
Print Assumptions C09d_last.

(** a reverse iterator run / scan is a chain of interval predecessor queries *)
Theorem C09d_run_is_chain : forall H, disciplined H -> stays_reachable H -> fullpath_stable H -> wf_history H ->
  forall t pos ds e, riter_run H t pos ds e -> gpos_ok H pos -> (t <= ip_at pos)%nat ->
  rscan H t (UKey true (ip_key pos)) ds /\ rrun_end H t (UKey true (ip_key pos)) ds e.
Proof. exact riter_run_rscan. Qed.
Print Assumptions C09d_run_is_chain.

Theorem C09d_scan_is_chain : forall H, disciplined H -> stays_reachable H -> fullpath_stable H -> wf_history H ->
  forall t u ds e, riter_scan H t u ds e -> rscan H t u ds /\ rrun_end H t u ds e.
Proof. exact riter_scan_rscan. Qed.
Print Assumptions C09d_scan_is_chain.

(** ** The scan theorems for chains of interval predecessor queries *)

Theorem C09d_ordered_bounded : forall H t u ds, rscan H t u ds ->
  StronglySorted (fun a b => lex_lt b a) (wkeys ds) /\ Forall (below u) (wkeys ds).
Proof. intros H t u ds S. exact (qchain_ordered_bounded (dlt_trans Rev) (rscan_qchain S) (below_up u)). Qed.
Print Assumptions C09d_ordered_bounded.

Theorem C09d_values_held : forall H t u ds, rscan H t u ds ->
  Forall (fun d : delivery => let '(t1, t2, k, v) := d in
            (t <= t1)%nat /\ exists T, (t1 <= T <= t2)%nat /\ entry (H T) k v) ds.
Proof. intros H t u ds S. exact (qchain_values_held (rscan_qchain S)). Qed.
Print Assumptions C09d_values_held.

Theorem C09d_no_phantom : forall H t u ds k, rscan H t u ds ->
  (forall t', ~ has_key (H t') k) -> ~ In k (wkeys ds).
Proof. intros H t u ds k S. exact (qchain_no_phantom k (rscan_qchain S)). Qed.
Print Assumptions C09d_no_phantom.

Theorem C09d_complete_prefix : forall H t u ds k, rscan H t u ds ->
  below u k -> ~ below (rfinal_bound u ds) k ->
  (forall t', (t <= t' <= wlast_moment t ds)%nat -> has_key (H t') k) -> In k (wkeys ds).
Proof.
  intros H t u ds k S. rewrite <- rfinal_cfinal.
  exact (qchain_complete_prefix (dlt_tricho Rev) k (rscan_qchain S)).
Qed.
Print Assumptions C09d_complete_prefix.

Theorem C09d_complete : forall H t u ds te1 te2 k, rscan H t u ds ->
  (wlast_moment t ds <= te1 <= te2)%nat -> rexhausted H te1 te2 (rfinal_bound u ds) ->
  below u k -> (forall t', (t <= t' <= te2)%nat -> has_key (H t') k) -> In k (wkeys ds).
Proof.
  intros H t u ds te1 te2 k S. unfold rexhausted, rquery. rewrite <- rfinal_cfinal.
  exact (qchain_complete (dlt_irrefl Rev) (dlt_trans Rev) (dlt_tricho Rev) te1 te2 k (rscan_qchain S) (below_decidable u)).
Qed.
Print Assumptions C09d_complete.

(** the loop of the reverse scan_range stops at the first key <= to *)
Theorem C09d_range_complete : forall H t u ds stop to k, rscan H t u (ds ++ [stop]) ->
  range_stop to ds stop -> below u k -> lex_lt to k ->
  (forall t', (t <= t' <= wlast_moment t (ds ++ [stop]))%nat -> has_key (H t') k) -> In k (wkeys ds).
Proof. exact rscan_range_complete. Qed.
Print Assumptions C09d_range_complete.

(** ** End to end: a reverse iterator scan of the tree *)

(** scan(fn, false): u = UInf; scan_from(hi, fn, false): u = UKey false hi *)
Theorem C09d_iterator_scan : forall H, disciplined H -> stays_reachable H -> fullpath_stable H -> wf_history H ->
  forall t u ds e, riter_scan H t u ds e ->
  StronglySorted (fun a b => lex_lt b a) (wkeys ds) /\ Forall (below u) (wkeys ds) /\
  Forall (fun d : delivery => let '(t1, t2, k, v) := d in
            (t <= t1)%nat /\ exists T, (t1 <= T <= t2)%nat /\ entry (H T) k v) ds /\
  (forall k, (forall t', ~ has_key (H t') k) -> ~ In k (wkeys ds)) /\
  (forall k, below u k -> ~ below (rfinal_bound u ds) k ->
     (forall t', (t <= t' <= wlast_moment t ds)%nat -> has_key (H t') k) -> In k (wkeys ds)) /\
  (forall te k, e = Some te -> below u k ->
     (forall t', (t <= t' <= te)%nat -> has_key (H t') k) -> In k (wkeys ds)).
Proof.
  intros H Hd Hs Hfp W t u ds e S.
  destruct (riter_scan_rscan H Hd Hs Hfp W t u ds e S) as [Sc En]. exact (rscan_scan H t u ds e Sc En).
Qed.
Print Assumptions C09d_iterator_scan.

(** scan_range(from, to, fn) with to < from: the interval (to, from] *)
Theorem C09d_iterator_scan_range : forall H, disciplined H -> stays_reachable H -> fullpath_stable H -> wf_history H ->
  forall t from to ds stop e, riter_scan H t (UKey false from) (ds ++ [stop]) e -> range_stop to ds stop ->
  Forall (fun k => lex_lt to k /\ lex_le k from) (wkeys ds) /\
  forall k, lex_le k from -> lex_lt to k ->
    (forall t', (t <= t' <= wlast_moment t (ds ++ [stop]))%nat -> has_key (H t') k) -> In k (wkeys ds).
Proof. exact riter_scan_range. Qed.
Print Assumptions C09d_iterator_scan_range.

(** ** The root pointer points to a leaf, or is null *)

(** a position on a root leaf: the tree is that one entry at the moment the leaf was read-locked *)
Theorem C09d_root_leaf_only : forall H pos x, wf_history H -> leafpos_ok H pos ->
  has_key (H (ip_at pos)) x -> x = ip_key pos.
Proof. exact leafpos_only. Qed.
Print Assumptions C09d_root_leaf_only.

Theorem C09d_root_leaf_first : forall H rl rw rc n0 a q k v,
  disciplined H -> stays_reachable H -> fullpath_stable H -> wf_history H ->
  first_down H rl rw rc n0 [] a q k v ->
  (rl <= h_lock a)%nat /\ leafpos_ok H (seek_pos [] a k v) /\
  first_query (H (h_lock a)) false [] (Some (k, v)).
Proof. exact first_leaf_atomic. Qed.
Print Assumptions C09d_root_leaf_first.

Theorem C09d_root_leaf_last : forall H rl rw rc n0 a q k v,
  disciplined H -> stays_reachable H -> fullpath_stable H -> wf_history H ->
  last_down H rl rw rc n0 [] a q k v ->
  (rl <= h_lock a)%nat /\ leafpos_ok H (seek_pos [] a k v) /\
  last_query (H (h_lock a)) UInf (Some (k, v)).
Proof. exact last_leaf_atomic. Qed.
Print Assumptions C09d_root_leaf_last.

(** try_seek whose search phase ends on the root leaf: the four outcomes
    (fwd hit / fwd miss then end / rev hit / rev miss then end), all atomic *)
Theorem C09d_root_leaf_seek : forall H x rl rw rc n0 a q k v,
  disciplined H -> stays_reachable H -> fullpath_stable H -> wf_history H ->
  seek_down H x rl rw rc n0 [] a q -> h_cont a = CLeaf k v ->
  (rl <= h_lock a)%nat /\ leafpos_ok H (seek_pos [] a k v) /\
  (lex_le x k -> first_query (H (h_lock a)) false x (Some (k, v))) /\
  (lex_lt k x -> first_query (H (h_lock a)) false x None) /\
  (lex_le k x -> last_query (H (h_lock a)) (UKey false x) (Some (k, v))) /\
  (lex_lt x k -> last_query (H (h_lock a)) (UKey false x) None).
Proof. exact seek_leaf_query. Qed.
Print Assumptions C09d_root_leaf_seek.

(** try_next / try_prior from a root leaf cannot deliver, only end *)
Theorem C09d_root_leaf_no_next : forall H pos t0 pops pv tc b' c' rest hs a q k' v', leafpos_ok H pos ->
  ~ next_some H pos t0 pops pv tc b' c' rest hs a q k' v'.
Proof. exact leafpos_no_next. Qed.
Print Assumptions C09d_root_leaf_no_next.

Theorem C09d_root_leaf_no_prior : forall H pos t0 pops pv tc b' c' rest hs a q k' v', leafpos_ok H pos ->
  ~ prior_some H pos t0 pops pv tc b' c' rest hs a q k' v'.
Proof. exact leafpos_no_prior. Qed.
Print Assumptions C09d_root_leaf_no_prior.

(** the end reported by try_next / try_prior, from an inner stack (decided at
    t0) or from a root leaf (decided at the moment the leaf was read-locked) *)
Theorem C09d_root_leaf_next_end : forall H pos t t0 pops,
  disciplined H -> stays_reachable H -> fullpath_stable H -> wf_history H -> gpos_ok H pos ->
  (t <= ip_at pos)%nat -> (t <= t0)%nat -> next_none H pos t0 pops ->
  (t <= end_moment pos t0)%nat /\ succ_query (H (end_moment pos t0)) (ip_key pos) None.
Proof. exact gnext_none_end. Qed.
Print Assumptions C09d_root_leaf_next_end.

Theorem C09d_root_leaf_prior_end : forall H pos t t0 pops,
  disciplined H -> stays_reachable H -> fullpath_stable H -> wf_history H -> gpos_ok H pos ->
  (t <= ip_at pos)%nat -> (t <= t0)%nat -> prior_none H pos t0 pops ->
  (t <= end_moment pos t0)%nat /\ pred_query (H (end_moment pos t0)) (ip_key pos) None.
Proof. exact gprior_none_end. Qed.
Print Assumptions C09d_root_leaf_prior_end.

(** the empty tree *)
Theorem C09d_empty_tree_fwd : forall (H : history) rl s lo, root (H rl) = None -> first_query (H rl) s lo None.
Proof. intros H rl s lo. exact (empty_tree Fwd (H rl) (above s lo)). Qed.
Print Assumptions C09d_empty_tree_fwd.

Theorem C09d_empty_tree_rev : forall (H : history) rl u, root (H rl) = None -> last_query (H rl) u None.
Proof. intros H rl u. exact (empty_tree Rev (H rl) (below u)). Qed.
Print Assumptions C09d_empty_tree_rev.

(** the forward seek and scan of C09c with root leaves and the empty tree included *)
Theorem C09d_root_leaf_fwd_seek : forall H, disciplined H -> stays_reachable H -> fullpath_stable H -> wf_history H ->
  forall lo rl t1 t2 pos, seek_result0 H lo rl t1 t2 pos ->
  (rl <= t1 <= t2)%nat /\ t2 = ip_at pos /\ gpos_ok H pos /\
  wquery H t1 t2 false lo (Some (ip_key pos, ip_val pos)).
Proof. exact seek_result0_ok. Qed.
Print Assumptions C09d_root_leaf_fwd_seek.

Theorem C09d_root_leaf_fwd_seek_end : forall H, disciplined H -> stays_reachable H -> fullpath_stable H -> wf_history H ->
  forall lo rl T, seek_end0 H lo rl T -> (rl <= T)%nat /\ first_query (H T) false lo None.
Proof. exact seek_end0_ok. Qed.
Print Assumptions C09d_root_leaf_fwd_seek_end.

Theorem C09d_root_leaf_fwd_scan_is_chain : forall H, disciplined H -> stays_reachable H -> fullpath_stable H -> wf_history H ->
  forall t lo ds e, iter_scan0 H t lo ds e -> wscan H t false lo ds /\ run_end H t false lo ds e.
Proof. exact iter_scan0_wscan. Qed.
Print Assumptions C09d_root_leaf_fwd_scan_is_chain.

Theorem C09d_root_leaf_fwd_scan : forall H, disciplined H -> stays_reachable H -> fullpath_stable H -> wf_history H ->
  forall t lo ds e, iter_scan0 H t lo ds e ->
  StronglySorted lex_lt (wkeys ds) /\ Forall (lex_le lo) (wkeys ds) /\
  Forall (fun d : delivery => let '(t1, t2, k, v) := d in
            (t <= t1)%nat /\ exists T, (t1 <= T <= t2)%nat /\ entry (H T) k v) ds /\
  (forall k, (forall t', ~ has_key (H t') k) -> ~ In k (wkeys ds)) /\
  (forall k, lex_le lo k -> ~ above (fst (wfinal_bound false lo ds)) (snd (wfinal_bound false lo ds)) k ->
     (forall t', (t <= t' <= wlast_moment t ds)%nat -> has_key (H t') k) -> In k (wkeys ds)) /\
  (forall te k, e = Some te -> lex_le lo k ->
     (forall t', (t <= t' <= te)%nat -> has_key (H t') k) -> In k (wkeys ds)).
Proof.
  intros H Hd Hs Hfp W t lo ds e S.
  destruct (iter_scan0_wscan H Hd Hs Hfp W t lo ds e S) as [Sc En]. exact (wscan_scan H t false lo ds e Sc En).
Qed.
Print Assumptions C09d_root_leaf_fwd_scan.

(** ** Non-vacuity *)

(** a reverse scan from [3;0] over the history of C09c_nonvacuous delivers
    [2;7], [1;3], [1;1] and ends at moment 19; the writer inserts [2;9]
    (below the bound) at moment 14, between the second and the third step *)
Example C09d_nonvacuous :
  disciplined Hx /\ stays_reachable Hx /\ fullpath_stable Hx /\ wf_history Hx /\
  riter_scan Hx 0 (UKey false [3; 0])
    [(1%nat, 5%nat, [2; 7], [270]); (8%nat, 12%nat, [1; 3], [130]); (15%nat, 16%nat, [1; 1], [110])] (Some 19%nat) /\
  below (UKey false [3; 0]) [2; 9] /\ ~ has_key (Hx 13%nat) [2; 9] /\ has_key (Hx 14%nat) [2; 9].
Proof.
  split; [exact Hx_disciplined|]. split; [exact Hx_stays_reachable|]. split; [exact Hx_fullpath|].
  split; [exact Hx_wf|]. split; [exact rx_scan|]. split; [exact rx_writer_below | exact x_writer].
Qed.
Print Assumptions C09d_nonvacuous.

(** the root pointer points to the leaf [1;1]; a writer splits it at moment 3
    (inserting [1;2]); a forward and a reverse scan that read-locked the leaf
    at moment 1 and re-validate it at moment 5 deliver it and end *)
Example C09d_root_leaf_nonvacuous :
  disciplined Hl /\ stays_reachable Hl /\ fullpath_stable Hl /\ wf_history Hl /\ leafpos_ok Hl posl /\
  iter_scan0 Hl 0 [] [(0%nat, 1%nat, [1; 1], [110])] (Some 1%nat) /\
  riter_scan Hl 0 UInf [(0%nat, 1%nat, [1; 1], [110])] (Some 1%nat) /\
  ~ has_key (Hl 2%nat) [1; 2] /\ has_key (Hl 3%nat) [1; 2].
Proof.
  split; [exact Hl_disciplined|]. split; [exact Hl_stays_reachable|]. split; [exact Hl_fullpath|].
  split; [exact Hl_wf|]. split; [exact l_leafpos|]. split; [exact l_scan_fwd|].
  split; [exact l_scan_rev | exact l_writer].
Qed.
Print Assumptions C09d_root_leaf_nonvacuous.

(** ... and the end is NOT the answer of the tree at the moment of the
    re-validation (5): [1;2] is in the tree then.  It is the answer of the
    tree at the moment the leaf was read-locked (1). *)
Theorem C09d_root_leaf_end_not_at_revalidation :
  disciplined Hl /\ stays_reachable Hl /\ fullpath_stable Hl /\ wf_history Hl /\ leafpos_ok Hl posl /\
  next_none Hl posl 5 [] /\ ~ succ_query (Hl 5%nat) (ip_key posl) None /\
  succ_query (Hl (ip_at posl)) (ip_key posl) None.
Proof.
  split; [exact Hl_disciplined|]. split; [exact Hl_stays_reachable|]. split; [exact Hl_fullpath|].
  split; [exact Hl_wf|]. split; [exact l_leafpos|]. split; [exact l_next_none|].
  split; [exact l_end_not_at_5|].
  exact (leafpos_none Fwd Hl posl (above true (ip_key posl)) Hl_wf l_leafpos (lex_lt_irrefl _)).
Qed.
Print Assumptions C09d_root_leaf_end_not_at_revalidation.

(** ** The atomic reading of a reverse step is false: a history that
    satisfies every condition, a successful try_prior from "25" delivering
    "19" (so the interval query holds), and no moment at which "19" is the
    predecessor of "25" *)
Theorem C09d_step_not_atomic :
  disciplined Hr /\ stays_reachable Hr /\ fullpath_stable Hr /\ wf_history Hr /\ pos_ok Hr posr /\
  prior_some Hr posr 1 [(er2, 2%nat)] er0 8 1 1%nat [] [ir1] ar [1; 9] [1; 9] [190] /\
  rquery Hr 1 6 (UKey true [2; 5]) (Some ([1; 9], [190])) /\
  forall T, ~ pred_query (Hr T) [2; 5] (Some ([1; 9], [190])).
Proof.
  split; [exact Hr_disciplined|]. split; [exact Hr_stays_reachable|]. split; [exact Hr_fullpath|].
  split; [exact Hr_wf|]. split; [exact posr_ok|]. split; [exact stepr|].
  split; [exact stepr_interval | exact rstep_not_atomic].
Qed.
Print Assumptions C09d_step_not_atomic.

(** the same scan read as scan_range(from = [3;0], to = [1;2]): fn saw [2;7]
    and [1;3]; the loop stopped on [1;1] <= [1;2] *)
Example C09d_range_nonvacuous :
  riter_scan Hx 0 (UKey false [3; 0])
    ([(1%nat, 5%nat, [2; 7], [270]); (8%nat, 12%nat, [1; 3], [130])] ++ [(15%nat, 16%nat, [1; 1], [110])]) (Some 19%nat) /\
  range_stop [1; 2] [(1%nat, 5%nat, [2; 7], [270]); (8%nat, 12%nat, [1; 3], [130])] (15%nat, 16%nat, [1; 1], [110]).
Proof.
  split; [exact rx_scan|]. split.
  - repeat constructor.
  - cbn. unfold lex_le. cbn. discriminate.
Qed.
Print Assumptions C09d_range_nonvacuous.

(** why the reverse theorems are not obtained from the forward ones through
    the byte complement b -> 255 - b: on byte strings of different lengths
    the complement is not an order anti-isomorphism (a proper prefix stays
    smaller), and search keys / the keys a query quantifies over may be
    proper prefixes of keys of the tree *)
Example C09d_complement_is_no_mirror :
  let m := map (fun b => 255 - b) in
  lex_lt [1] [1; 2] /\ lex_lt (m [1]) (m [1; 2]).
Proof. split; reflexivity. Qed.
Print Assumptions C09d_complement_is_no_mirror.
