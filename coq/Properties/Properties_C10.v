(** C10 — tree shape, node statistics and memory accounting are functions of
    the key set. *)
From Coq Require Import List ZArith Bool Lia.
From Unodb Require Import Base.Lex Art.ArtModel Art.ArtIter Art.ArtSpec Art.ArtInv Art.ArtScanSpec Art.ArtShapeProofs Art.ArtStats.
Import ListNotations.
Local Open Scope Z_scope.

(** History independence: two well-formed trees (same key length, same path)
    holding the same entries have the same shape -- same node classes, same
    prefixes, same child bytes -- whatever histories produced them. *)
Theorem C10_canonical : forall L t1 t2 pi, (1 <= L <= 8)%nat -> WF L t1 pi -> WF L t2 pi ->
  kvs (leaves t1) = kvs (leaves t2) -> erase t1 = erase t2.
Proof. exact shape_unique. Qed.
Print Assumptions C10_canonical.

(** every inner node is in the smallest class that fits its fan-out
    (2-4, 5-16, 17-48, 49-256): read off the invariant *)
Theorem C10_class_by_fanout : forall L c p ch pi, WF L (Inode c p ch) pi ->
  c = (if (length ch <=? 4)%nat then C4 else if (length ch <=? 16)%nat then C16
       else if (length ch <=? 48)%nat then C48 else C256) /\ (2 <= length ch <= 256)%nat.
Proof. exact class_by_fanout. Qed.
Print Assumptions C10_class_by_fanout.

(** the incrementally maintained statistics equal the functions of the tree
    after every history *)
Theorem C10_counts : forall L sz ops, (1 <= L <= 8)%nat -> Forall (op_ok L) ops ->
  let d := run_state sz db0 ops in
  n_leaf (st d) = Z.of_nat (length (db_leaves d)) /\
  (forall c, n_i (st d) c = db_count_cls c d) /\
  mem (st d) = db_tree_mem sz d.
Proof. exact stats_are_tree_functions. Qed.
Print Assumptions C10_counts.

(** growth / shrink / split counters never decrease *)
Theorem C10_monotone : forall sz d o c,
  grow (st d) c <= grow (st (fst (step sz d o))) c /\
  shrink (st d) c <= shrink (st (fst (step sz d o))) c /\
  splits (st d) <= splits (st (fst (step sz d o))).
Proof. exact counters_monotone. Qed.
Print Assumptions C10_monotone.

(** an empty or cleared index reports nothing *)
Theorem C10_clear : forall d c, n_leaf (st (db_clear d)) = 0 /\ n_i (st (db_clear d)) c = 0 /\ mem (st (db_clear d)) = 0.
Proof. exact clear_zero. Qed.
Print Assumptions C10_clear.
