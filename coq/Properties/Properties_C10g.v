(** C10g — tree shape and node statistics as functions of the key set, for
    trees over variable-length prefix-free keys. *)
From Coq Require Import List ZArith Bool Lia.
From Unodb Require Import Base.Lex Art.ArtModel Art.ArtIter Art.ArtSpec Art.ArtInv Art.ArtScanSpec
  Art.ArtGenInv Art.ArtGenRun Art.ArtGenShape Art.ArtStats.
Import ListNotations.
Local Open Scope Z_scope.

(** History independence: two trees satisfying the generalised invariant
    below the same path and holding the same entries have the same shape. *)
Theorem C10g_canonical : forall t1 t2 pi, WFg t1 pi -> WFg t2 pi ->
  kvs (leaves t1) = kvs (leaves t2) -> erase t1 = erase t2.
Proof. exact shape_unique_g. Qed.
Print Assumptions C10g_canonical.

Theorem C10g_class_by_fanout : forall c p ch pi, WFg (Inode c p ch) pi ->
  c = (if (length ch <=? 4)%nat then C4 else if (length ch <=? 16)%nat then C16
       else if (length ch <=? 48)%nat then C48 else C256) /\ (2 <= length ch <= 256)%nat.
Proof. exact class_by_fanout_g. Qed.
Print Assumptions C10g_class_by_fanout.

(** the statistics equal the functions of the tree after EVERY history (no
    hypothesis on the keys is needed for this part) *)
Theorem C10g_counts : forall sz ops,
  let d := run_state sz db0 ops in
  n_leaf (st d) = Z.of_nat (length (db_leaves d)) /\
  (forall c, n_i (st d) c = db_count_cls c d) /\
  mem (st d) = db_tree_mem sz d.
Proof. exact stats_are_tree_functions_all. Qed.
Print Assumptions C10g_counts.

(** two histories over mixed-length keys reaching the same contents in a
    different order (and through a prefix split / collapse) *)
Definition ex_sz : sizes := {| sz_leaf := 11; sz4 := 48; sz16 := 160; sz48 := 672; sz256 := 2064 |}.
Definition ex_h1 : list op :=
  [OInsert [1;2;3] [10]; OInsert [1;2;4;5] [11]; OInsert [1;9] [12]; OInsert [2] [13]].
Definition ex_h2 : list op :=
  [OInsert [2] [13]; OInsert [7;7] [0]; OInsert [1;9] [12]; OInsert [1;2;4;5] [11]; ORemove [7;7];
   OInsert [1;2;3] [10]].

Example C10g_ex : hist_ok ex_sz db0 ([], 0) ex_h1 = true /\ hist_ok ex_sz db0 ([], 0) ex_h2 = true /\
  kvs (db_leaves (run_state ex_sz db0 ex_h1)) = kvs (db_leaves (run_state ex_sz db0 ex_h2)) /\
  option_map erase (root (run_state ex_sz db0 ex_h1)) = option_map erase (root (run_state ex_sz db0 ex_h2)).
Proof. vm_compute. repeat split. Qed.
