(** C11b — the encoder's float order ([ftotal_lt], proved order-preserving for
    the key encoding in C11) against the IEEE-754 semantics of Flocq
    ([Bcompare] / [is_nan] / [is_finite] / [B2R] on [b32_of_bits], [b64_of_bits]).
    Statements only; each is a theorem of Encode/EncFlocq.v's format-generic
    section taken at binary32 (23 fraction bits, 8 exponent bits) or binary64
    (52, 11); [Print Assumptions] under each.

    Note on assumptions: [b32_of_bits] / [b64_of_bits] are [FF2B _ (binary_float_of_bits_aux_correct ..)];
    the validity proof embedded in them is proved in Flocq with the reals, so every
    statement that mentions [b32_of_bits] lists the standard-library real-number assumptions
    even though the proofs here never use them.  The [core_*] statements are the same
    facts on the computational core [binary_float_of_bits_aux] and are closed under the global context. *)
From Coq Require Import ZArith Bool Reals SpecFloat.
From Flocq Require Import IEEE754.Binary IEEE754.Bits.
From Unodb Require Import Base.Lex Base.FloatBits Encode.EncModel Encode.EncOrder Encode.EncFlocq.
Local Open Scope Z_scope.

Print Assumptions b32_of_bits.
Print Assumptions b64_of_bits.

(** (1) IEEE less-than implies the encoder's order. *)
Theorem C11b_ftotal_lt_Bcompare32 : forall x y,
  0 <= x < 2 ^ 32 -> 0 <= y < 2 ^ 32 ->
  f_is_nan f32 x = false -> f_is_nan f32 y = false ->
  Bcompare 24 128 (b32_of_bits x) (b32_of_bits y) = Some Lt -> ftotal_lt f32 x y.
Proof. intros x y _ _. exact (gen_ftotal_lt_Bcompare 23 8 eq_refl eq_refl eq_refl x y). Qed.
Print Assumptions C11b_ftotal_lt_Bcompare32.

Theorem C11b_ftotal_lt_Bcompare64 : forall x y,
  0 <= x < 2 ^ 64 -> 0 <= y < 2 ^ 64 ->
  f_is_nan f64 x = false -> f_is_nan f64 y = false ->
  Bcompare 53 1024 (b64_of_bits x) (b64_of_bits y) = Some Lt -> ftotal_lt f64 x y.
Proof. intros x y _ _. exact (gen_ftotal_lt_Bcompare 52 11 eq_refl eq_refl eq_refl x y). Qed.
Print Assumptions C11b_ftotal_lt_Bcompare64.

(** (2) Converse, up to -0 (word 2^31 / 2^63) before +0 (word 0). *)
Theorem C11b_Bcompare_ftotal_lt32 : forall x y,
  0 <= x < 2 ^ 32 -> 0 <= y < 2 ^ 32 ->
  f_is_nan f32 x = false -> f_is_nan f32 y = false ->
  ftotal_lt f32 x y ->
  Bcompare 24 128 (b32_of_bits x) (b32_of_bits y) = Some Lt \/ (x = 2 ^ 31 /\ y = 0).
Proof. exact (gen_Bcompare_ftotal_lt_word 23 8 eq_refl eq_refl eq_refl). Qed.
Print Assumptions C11b_Bcompare_ftotal_lt32.

Theorem C11b_Bcompare_ftotal_lt64 : forall x y,
  0 <= x < 2 ^ 64 -> 0 <= y < 2 ^ 64 ->
  f_is_nan f64 x = false -> f_is_nan f64 y = false ->
  ftotal_lt f64 x y ->
  Bcompare 53 1024 (b64_of_bits x) (b64_of_bits y) = Some Lt \/ (x = 2 ^ 63 /\ y = 0).
Proof. exact (gen_Bcompare_ftotal_lt_word 52 11 eq_refl eq_refl eq_refl). Qed.
Print Assumptions C11b_Bcompare_ftotal_lt64.

Theorem C11b_Bcompare_zeros32 : Bcompare 24 128 (b32_of_bits (2 ^ 31)) (b32_of_bits 0) = Some Eq.
Proof. exact (gen_Bcompare_zero_words 23 8 eq_refl eq_refl eq_refl). Qed.
Print Assumptions C11b_Bcompare_zeros32.

Theorem C11b_Bcompare_zeros64 : Bcompare 53 1024 (b64_of_bits (2 ^ 63)) (b64_of_bits 0) = Some Eq.
Proof. exact (gen_Bcompare_zero_words 52 11 eq_refl eq_refl eq_refl). Qed.
Print Assumptions C11b_Bcompare_zeros64.

(** (1)+(2) as one equation: IEEE comparison of non-NaN words is the
    sign-magnitude comparison of (sign bit, magnitude bits). *)
Theorem C11b_Bcompare_bits32 : forall x y,
  f_is_nan f32 x = false -> f_is_nan f32 y = false ->
  Bcompare 24 128 (b32_of_bits x) (b32_of_bits y)
  = Some (cmp_sm (fneg f32 x) (fmag f32 x) (fneg f32 y) (fmag f32 y)).
Proof. exact (Bcompare_bits 23 8 eq_refl eq_refl eq_refl). Qed.
Print Assumptions C11b_Bcompare_bits32.

Theorem C11b_Bcompare_bits64 : forall x y,
  f_is_nan f64 x = false -> f_is_nan f64 y = false ->
  Bcompare 53 1024 (b64_of_bits x) (b64_of_bits y)
  = Some (cmp_sm (fneg f64 x) (fmag f64 x) (fneg f64 y) (fmag f64 y)).
Proof. exact (Bcompare_bits 52 11 eq_refl eq_refl eq_refl). Qed.
Print Assumptions C11b_Bcompare_bits64.

(** Assumption-free core of (1)+(2): the decoder [binary_float_of_bits_aux] and
    [SFcompare] (which [Bcompare] unfolds to), and [ftotal_lt] against [cmp_sm]. *)
Theorem C11b_core_SFcompare32 : forall x y,
  f_is_nan f32 x = false -> f_is_nan f32 y = false ->
  SFcompare (FF2SF (binary_float_of_bits_aux 23 8 x)) (FF2SF (binary_float_of_bits_aux 23 8 y))
  = Some (cmp_sm (fneg f32 x) (fmag f32 x) (fneg f32 y) (fmag f32 y)).
Proof. exact (SFcompare_bits 23 8 eq_refl eq_refl). Qed.
Print Assumptions C11b_core_SFcompare32.

Theorem C11b_core_SFcompare64 : forall x y,
  f_is_nan f64 x = false -> f_is_nan f64 y = false ->
  SFcompare (FF2SF (binary_float_of_bits_aux 52 11 x)) (FF2SF (binary_float_of_bits_aux 52 11 y))
  = Some (cmp_sm (fneg f64 x) (fmag f64 x) (fneg f64 y) (fmag f64 y)).
Proof. exact (SFcompare_bits 52 11 eq_refl eq_refl). Qed.
Print Assumptions C11b_core_SFcompare64.

Theorem C11b_core_ftotal_lt_cmp32 : forall x y,
  f_is_nan f32 x = false -> f_is_nan f32 y = false ->
  (ftotal_lt f32 x y <->
   cmp_sm (fneg f32 x) (fmag f32 x) (fneg f32 y) (fmag f32 y) = Lt
   \/ ((fneg f32 x = true /\ fmag f32 x = 0) /\ (fneg f32 y = false /\ fmag f32 y = 0))).
Proof. exact (ftotal_lt_cmp_sm 23 8 eq_refl eq_refl). Qed.
Print Assumptions C11b_core_ftotal_lt_cmp32.

Theorem C11b_core_ftotal_lt_cmp64 : forall x y,
  f_is_nan f64 x = false -> f_is_nan f64 y = false ->
  (ftotal_lt f64 x y <->
   cmp_sm (fneg f64 x) (fmag f64 x) (fneg f64 y) (fmag f64 y) = Lt
   \/ ((fneg f64 x = true /\ fmag f64 x = 0) /\ (fneg f64 y = false /\ fmag f64 y = 0))).
Proof. exact (ftotal_lt_cmp_sm 52 11 eq_refl eq_refl). Qed.
Print Assumptions C11b_core_ftotal_lt_cmp64.

(** The bridge between the two levels: Flocq's [Bcompare] on decoded words is
    [SFcompare] on the computational core (by unfolding only). *)
Theorem C11b_Bcompare_is_SFcompare32 : forall x y,
  Bcompare 24 128 (b32_of_bits x) (b32_of_bits y)
  = SFcompare (FF2SF (binary_float_of_bits_aux 23 8 x)) (FF2SF (binary_float_of_bits_aux 23 8 y)).
Proof. exact (Bcompare_bof_SF 23 8 eq_refl eq_refl eq_refl). Qed.
Print Assumptions C11b_Bcompare_is_SFcompare32.

Theorem C11b_Bcompare_is_SFcompare64 : forall x y,
  Bcompare 53 1024 (b64_of_bits x) (b64_of_bits y)
  = SFcompare (FF2SF (binary_float_of_bits_aux 52 11 x)) (FF2SF (binary_float_of_bits_aux 52 11 y)).
Proof. exact (Bcompare_bof_SF 52 11 eq_refl eq_refl eq_refl). Qed.
Print Assumptions C11b_Bcompare_is_SFcompare64.

(** (3) NaN / infinity / finiteness. *)
Theorem C11b_nan32 : forall x,
  f_is_nan f32 x = true <-> is_nan 24 128 (b32_of_bits x) = true.
Proof. exact (gen_nan_iff 23 8 eq_refl eq_refl eq_refl). Qed.
Print Assumptions C11b_nan32.

Theorem C11b_nan64 : forall x,
  f_is_nan f64 x = true <-> is_nan 53 1024 (b64_of_bits x) = true.
Proof. exact (gen_nan_iff 52 11 eq_refl eq_refl eq_refl). Qed.
Print Assumptions C11b_nan64.

Theorem C11b_inf32 : forall x,
  f_is_inf f32 x = true <-> b32_of_bits x = B754_infinity 24 128 (fneg f32 x).
Proof. exact (gen_is_inf 23 8 eq_refl eq_refl eq_refl). Qed.
Print Assumptions C11b_inf32.

Theorem C11b_inf64 : forall x,
  f_is_inf f64 x = true <-> b64_of_bits x = B754_infinity 53 1024 (fneg f64 x).
Proof. exact (gen_is_inf 52 11 eq_refl eq_refl eq_refl). Qed.
Print Assumptions C11b_inf64.

Theorem C11b_finite32 : forall x,
  is_finite 24 128 (b32_of_bits x) = negb (f_is_nan f32 x) && negb (f_is_inf f32 x).
Proof. exact (gen_is_finite 23 8 eq_refl eq_refl eq_refl). Qed.
Print Assumptions C11b_finite32.

Theorem C11b_finite64 : forall x,
  is_finite 53 1024 (b64_of_bits x) = negb (f_is_nan f64 x) && negb (f_is_inf f64 x).
Proof. exact (gen_is_finite 52 11 eq_refl eq_refl eq_refl). Qed.
Print Assumptions C11b_finite64.

Theorem C11b_core_nan32 : forall x, is_nan_FF (binary_float_of_bits_aux 23 8 x) = f_is_nan f32 x.
Proof. exact (is_nan_aux 23 8 eq_refl eq_refl). Qed.
Print Assumptions C11b_core_nan32.

Theorem C11b_core_nan64 : forall x, is_nan_FF (binary_float_of_bits_aux 52 11 x) = f_is_nan f64 x.
Proof. exact (is_nan_aux 52 11 eq_refl eq_refl). Qed.
Print Assumptions C11b_core_nan64.

Theorem C11b_core_inf32 : forall x,
  f_is_inf f32 x = true <-> binary_float_of_bits_aux 23 8 x = F754_infinity (fneg f32 x).
Proof. exact (is_inf_aux 23 8 eq_refl eq_refl). Qed.
Print Assumptions C11b_core_inf32.

Theorem C11b_core_inf64 : forall x,
  f_is_inf f64 x = true <-> binary_float_of_bits_aux 52 11 x = F754_infinity (fneg f64 x).
Proof. exact (is_inf_aux 52 11 eq_refl eq_refl). Qed.
Print Assumptions C11b_core_inf64.

(** (4) With the encoder's order theorem. *)
Theorem C11b_enc_lt_of_Bcompare32 : forall x y,
  0 <= x < 2 ^ 32 -> 0 <= y < 2 ^ 32 ->
  f_is_nan f32 x = false -> f_is_nan f32 y = false ->
  Bcompare 24 128 (b32_of_bits x) (b32_of_bits y) = Some Lt ->
  lex_lt (enc_float f32 x) (enc_float f32 y).
Proof. exact (gen_enc_lt_of_Bcompare 23 8 eq_refl eq_refl eq_refl f32_ok). Qed.
Print Assumptions C11b_enc_lt_of_Bcompare32.

Theorem C11b_enc_lt_of_Bcompare64 : forall x y,
  0 <= x < 2 ^ 64 -> 0 <= y < 2 ^ 64 ->
  f_is_nan f64 x = false -> f_is_nan f64 y = false ->
  Bcompare 53 1024 (b64_of_bits x) (b64_of_bits y) = Some Lt ->
  lex_lt (enc_float f64 x) (enc_float f64 y).
Proof. exact (gen_enc_lt_of_Bcompare 52 11 eq_refl eq_refl eq_refl f64_ok). Qed.
Print Assumptions C11b_enc_lt_of_Bcompare64.

Theorem C11b_enc_lt_iff_Bcompare32 : forall x y,
  0 <= x < 2 ^ 32 -> 0 <= y < 2 ^ 32 ->
  f_is_nan f32 x = false -> f_is_nan f32 y = false ->
  (lex_lt (enc_float f32 x) (enc_float f32 y) <->
   Bcompare 24 128 (b32_of_bits x) (b32_of_bits y) = Some Lt \/ (x = 2 ^ 31 /\ y = 0)).
Proof. exact (gen_enc_lt_iff_Bcompare 23 8 eq_refl eq_refl eq_refl f32_ok). Qed.
Print Assumptions C11b_enc_lt_iff_Bcompare32.

Theorem C11b_enc_lt_iff_Bcompare64 : forall x y,
  0 <= x < 2 ^ 64 -> 0 <= y < 2 ^ 64 ->
  f_is_nan f64 x = false -> f_is_nan f64 y = false ->
  (lex_lt (enc_float f64 x) (enc_float f64 y) <->
   Bcompare 53 1024 (b64_of_bits x) (b64_of_bits y) = Some Lt \/ (x = 2 ^ 63 /\ y = 0)).
Proof. exact (gen_enc_lt_iff_Bcompare 52 11 eq_refl eq_refl eq_refl f64_ok). Qed.
Print Assumptions C11b_enc_lt_iff_Bcompare64.

(** (4') Finite values: the order of the real numbers denoted ([B2R]). *)
Theorem C11b_enc_lt_of_Rlt32 : forall x y,
  0 <= x < 2 ^ 32 -> 0 <= y < 2 ^ 32 ->
  is_finite 24 128 (b32_of_bits x) = true -> is_finite 24 128 (b32_of_bits y) = true ->
  (B2R 24 128 (b32_of_bits x) < B2R 24 128 (b32_of_bits y))%R ->
  lex_lt (enc_float f32 x) (enc_float f32 y).
Proof. exact (gen_enc_lt_of_Rlt 23 8 eq_refl eq_refl eq_refl f32_ok). Qed.
Print Assumptions C11b_enc_lt_of_Rlt32.

Theorem C11b_enc_lt_of_Rlt64 : forall x y,
  0 <= x < 2 ^ 64 -> 0 <= y < 2 ^ 64 ->
  is_finite 53 1024 (b64_of_bits x) = true -> is_finite 53 1024 (b64_of_bits y) = true ->
  (B2R 53 1024 (b64_of_bits x) < B2R 53 1024 (b64_of_bits y))%R ->
  lex_lt (enc_float f64 x) (enc_float f64 y).
Proof. exact (gen_enc_lt_of_Rlt 52 11 eq_refl eq_refl eq_refl f64_ok). Qed.
Print Assumptions C11b_enc_lt_of_Rlt64.

Theorem C11b_enc_lt_iff_Rlt32 : forall x y,
  0 <= x < 2 ^ 32 -> 0 <= y < 2 ^ 32 ->
  is_finite 24 128 (b32_of_bits x) = true -> is_finite 24 128 (b32_of_bits y) = true ->
  (lex_lt (enc_float f32 x) (enc_float f32 y) <->
   (B2R 24 128 (b32_of_bits x) < B2R 24 128 (b32_of_bits y))%R \/ (x = 2 ^ 31 /\ y = 0)).
Proof. exact (gen_enc_lt_iff_Rlt 23 8 eq_refl eq_refl eq_refl f32_ok). Qed.
Print Assumptions C11b_enc_lt_iff_Rlt32.

Theorem C11b_enc_lt_iff_Rlt64 : forall x y,
  0 <= x < 2 ^ 64 -> 0 <= y < 2 ^ 64 ->
  is_finite 53 1024 (b64_of_bits x) = true -> is_finite 53 1024 (b64_of_bits y) = true ->
  (lex_lt (enc_float f64 x) (enc_float f64 y) <->
   (B2R 53 1024 (b64_of_bits x) < B2R 53 1024 (b64_of_bits y))%R \/ (x = 2 ^ 63 /\ y = 0)).
Proof. exact (gen_enc_lt_iff_Rlt 52 11 eq_refl eq_refl eq_refl f64_ok). Qed.
Print Assumptions C11b_enc_lt_iff_Rlt64.

Theorem C11b_zero_words_B2R32 :
  B2R 24 128 (b32_of_bits (2 ^ 31)) = 0%R /\ B2R 24 128 (b32_of_bits 0) = 0%R.
Proof. exact (gen_zero_words_B2R 23 8 eq_refl eq_refl eq_refl). Qed.
Print Assumptions C11b_zero_words_B2R32.

Theorem C11b_zero_words_B2R64 :
  B2R 53 1024 (b64_of_bits (2 ^ 63)) = 0%R /\ B2R 53 1024 (b64_of_bits 0) = 0%R.
Proof. exact (gen_zero_words_B2R 52 11 eq_refl eq_refl eq_refl). Qed.
Print Assumptions C11b_zero_words_B2R64.
