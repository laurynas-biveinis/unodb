(** C14 — OLC operations never deadlock or leave a node locked (Coq part:
    the trace-level facts; the decision on the code is the deterministic
    schedule exploration with deadlock / livelock detection and the
    post-execution sweep). *)
From Coq Require Import List ZArith Bool.
From Unodb Require Import Lock.LockModel Lock.LockProofs Olc.OlcTrace Olc.OlcProofs.
Import ListNotations.
Local Open Scope Z_scope.

(** In every accepted trace a thread that holds a write guard cannot perform
    a waiting step: waiting happens only in try_read_lock by threads holding
    nothing.  Hence whenever some thread waits on a write-locked node, that
    node's holder (it exists and is unique: C07_exclusive per node) is not
    waiting, so no set of threads can wait on one another forever. *)
Theorem C14_no_wait_while_holding : forall inits tr t b,
  olc_trace_ok inits tr = true -> holds_any (held_after [] tr) t = true ->
  olc_trace_ok inits (tr ++ [(b, ESpin t)]) = false.
Proof. exact holder_never_waits. Qed.
Print Assumptions C14_no_wait_while_holding.

(** per node: at most one write guard, and exactly when the write bit is set *)
Theorem C14_one_holder_per_node : forall n tr s, lrun (linit n) tr = Some s ->
  (length (guards s) <= 1)%nat /\ (guards s <> [] <-> w_is_write_locked (lw s) = true).
Proof. intros n tr s H. apply exclusive, (reach_inv _ _ _ H). Qed.
Print Assumptions C14_one_holder_per_node.

Example C14_nonvacuous :
  olc_trace_ok [(1%nat, linit 1)]
    [(1%nat, ERLock 1%nat 0); (1%nat, EUpgrade 1%nat 0 true); (1%nat, ERLock 2%nat 2); (1%nat, ESpin 2%nat);
     (1%nat, EStore 1%nat O 5); (1%nat, EWUnlock 1%nat 4); (1%nat, ERLock 2%nat 4)] = true.
Proof. vm_compute. reflexivity. Qed.
