(** C14 — no wait cycle among the threads of the OLC index (trace level). *)
From Coq Require Import List ZArith Bool.
From Unodb Require Import Lock.LockModel Lock.LockProofs Olc.OlcTrace Olc.OlcProofs Olc.Deadlock.
Import ListNotations.
Local Open Scope Z_scope.

(** In every accepted trace, a thread that holds a write guard at the end of
    the trace is not in a waiting step (its last event is not the spin body
    of try_read_lock on any node). *)
Theorem C14c_holder_not_waiting : forall inits tr b u,
  olc_trace_ok inits tr = true -> In (b, u) (held_after [] tr) -> forall b', ~ spinning_on tr u b'.
Proof. exact holder_not_spinning. Qed.
Print Assumptions C14c_holder_not_waiting.

(** Every node whose lock word is write-locked at the end of an accepted
    trace has exactly one holder; that thread holds it in the global ghost as
    well and is not waiting: a spinning reader always waits for a thread that
    can run. *)
Theorem C14c_locked_node_has_running_holder : forall inits tr b s0 s,
  olc_trace_ok inits tr = true -> inits_ok inits -> In (b, s0) inits ->
  lrun s0 (project b tr) = Some s -> w_is_write_locked (lw s) = true ->
  exists u, guards s = [u] /\ In (b, u) (held_after [] tr) /\ forall b', ~ spinning_on tr u b'.
Proof. exact locked_node_has_running_holder. Qed.
Print Assumptions C14c_locked_node_has_running_holder.

(** No deadlock: there is no accepted trace after which every unfinished
    thread (the set ts, which contains every lock holder) is spinning on a
    node that is still write-locked.  This is the state the deterministic
    scheduler reports as a deadlock on the implementation. *)
Theorem C14c_not_all_waiting : forall inits tr (ts : list tid),
  olc_trace_ok inits tr = true -> inits_ok inits ->
  (forall t, In t ts -> exists b s0 s, In (b, s0) inits /\ spinning_on tr t b /\
       lrun s0 (project b tr) = Some s /\ w_is_write_locked (lw s) = true) ->
  (forall b u, In (b, u) (held_after [] tr) -> In u ts) ->
  ts = [].
Proof. exact not_all_waiting. Qed.
Print Assumptions C14c_not_all_waiting.

(** non-vacuity: thread 1 holds node 1 while thread 2 spins on it; the trace
    is accepted, node 1 is write-locked, thread 2 is spinning, thread 1 is not *)
Example C14c_nonvacuous :
  let inits := [(1%nat, linit 1); (2%nat, linit 1)] in
  let tr := [(1%nat, ERLock 1%nat 0); (1%nat, EUpgrade 1%nat 0 true); (1%nat, ERLock 2%nat 2); (1%nat, ESpin 2%nat);
             (2%nat, ERLock 1%nat 0)] in
  olc_trace_ok inits tr = true /\ spinning_on tr 2%nat 1%nat /\
  (exists s, lrun (linit 1) (project 1%nat tr) = Some s /\ w_is_write_locked (lw s) = true) /\
  held_after [] tr = [(1%nat, 1%nat)] /\ last_of 1%nat tr = Some (2%nat, ERLock 1%nat 0).
Proof. vm_compute. repeat split; eauto. Qed.

Example C14c_inits_ok : inits_ok [(1%nat, linit 1); (2%nat, linit 1)].
Proof. intros b s0 [E|[E|[]]]; injection E as _ <-; (split; [apply linit_inv|reflexivity]). Qed.
