(** C14 — progress accounting for the OLC index (trace level): who can make a
    thread restart or wait, and that a thread running alone does neither. *)
From Coq Require Import List ZArith Bool.
From Unodb Require Import Lock.LockModel Lock.LockProofs Lock.LockProgress Olc.OlcTrace Olc.OlcProofs Olc.Deadlock Olc.Progress.
Import ListNotations.
Local Open Scope Z_scope.

(** One lock: a failed check / failed upgrade of a section opened at the free
    version v happens only if some thread acquired the write lock after the
    section was opened (restarts are charged to write acquisitions). *)
Theorem C14d_failed_check_charged : forall n p t v s0 m obs s2,
  lrun (linit n) (p ++ [ERLock t v]) = Some s0 -> w_is_free v = true ->
  lrun s0 (m ++ [ECheck t v obs]) = Some s2 -> obs <> v ->
  exists t' v', In (EUpgrade t' v' true) m.
Proof.
  intros n p t v s0 m obs s2 P F R.
  exact (failed_check_charged _ _ _ _ _ _ [] _ (linit_inv n) (section_glue _ _ _ _ _ _ _ P R) F).
Qed.
Print Assumptions C14d_failed_check_charged.

Theorem C14d_failed_upgrade_charged : forall n p t v s0 m s2,
  lrun (linit n) (p ++ [ERLock t v]) = Some s0 -> w_is_free v = true ->
  lrun s0 (m ++ [EUpgrade t v false]) = Some s2 ->
  exists t' v', In (EUpgrade t' v' true) m.
Proof.
  intros n p t v s0 m s2 P F R.
  exact (failed_upgrade_charged _ _ _ _ _ [] _ (linit_inv n) (section_glue _ _ _ _ _ _ _ P R) F).
Qed.
Print Assumptions C14d_failed_upgrade_charged.

(** a read-lock that has to wait (it observed a write-locked word) faces a
    lock with exactly one holder *)
Theorem C14d_wait_has_holder : forall n p s t obs,
  lrun (linit n) p = Some s -> lstep s (ERLock t obs) = Some s -> w_is_write_locked obs = true ->
  exists u, guards s = [u].
Proof. intros n p s t obs H. apply wait_has_holder, (reach_inv _ _ _ H). Qed.
Print Assumptions C14d_wait_has_holder.

(** Whole index, any accepted trace, any node: the same accounting, and the
    acquiring thread is ANOTHER thread whenever the restarted thread did not
    itself acquire that node in between. *)
Theorem C14d_restart_charged_node : forall inits tr b s0 pre t v mid obs post,
  node_accepts inits tr = true -> inits_ok inits -> In (b, s0) inits ->
  project b tr = pre ++ ERLock t v :: mid ++ ECheck t v obs :: post ->
  w_is_free v = true -> obs <> v ->
  exists t' v', In (EUpgrade t' v' true) mid.
Proof. exact failed_check_charged_node. Qed.
Print Assumptions C14d_restart_charged_node.

Theorem C14d_restart_charged_upgrade_node : forall inits tr b s0 pre t v mid post,
  node_accepts inits tr = true -> inits_ok inits -> In (b, s0) inits ->
  project b tr = pre ++ ERLock t v :: mid ++ EUpgrade t v false :: post ->
  w_is_free v = true ->
  exists t' v', In (EUpgrade t' v' true) mid.
Proof. exact failed_upgrade_charged_node. Qed.
Print Assumptions C14d_restart_charged_upgrade_node.

Theorem C14d_restart_charged_to_other : forall inits tr b s0 pre t v mid obs post,
  node_accepts inits tr = true -> inits_ok inits -> In (b, s0) inits ->
  project b tr = pre ++ ERLock t v :: mid ++ ECheck t v obs :: post ->
  w_is_free v = true -> obs <> v ->
  (forall v', ~ In (EUpgrade t v' true) mid) ->
  exists t' v', t' <> t /\ In (EUpgrade t' v' true) mid.
Proof. exact failed_check_charged_other. Qed.
Print Assumptions C14d_restart_charged_to_other.

(** No help needed: after any accepted prefix that leaves no write guard held
    (every earlier operation has returned: Protocol rule R3), in a period in
    which nobody acquires a write lock, on every node every read-lock
    observes one and the same non-write-locked word w (so it does not wait),
    every check observes w, and an upgrade attempt can fail only for a version
    other than w (a version saved before the period). *)
Theorem C14d_quiet_suffix : forall inits pre suf b s0,
  olc_trace_ok inits (pre ++ suf) = true -> inits_ok inits -> In (b, s0) inits ->
  held_after [] pre = [] -> quiet_g suf = true ->
  exists w, w_is_write_locked w = false /\
    (forall a t obs c, project b suf = a ++ ERLock t obs :: c -> obs = w) /\
    (forall a t v obs c, project b suf = a ++ ECheck t v obs :: c -> obs = w) /\
    (forall a t v c, project b suf = a ++ EUpgrade t v false :: c -> v <> w).
Proof. exact quiet_suffix. Qed.
Print Assumptions C14d_quiet_suffix.

(** hence every section opened in such a period validates: a get or a scan
    step running alone is never sent back and never waits *)
Theorem C14d_alone_never_restarts : forall inits pre suf b s0 a t v m obs c,
  olc_trace_ok inits (pre ++ suf) = true -> inits_ok inits -> In (b, s0) inits ->
  held_after [] pre = [] -> quiet_g suf = true ->
  project b suf = a ++ ERLock t v :: m ++ ECheck t v obs :: c ->
  obs = v /\ w_is_write_locked v = false.
Proof. exact quiet_sections_validate. Qed.
Print Assumptions C14d_alone_never_restarts.

(** non-vacuity.  Node 1: thread 1 opens a section at 0; thread 2 opens one,
    upgrades, unlocks (word 4); thread 1's check fails - charged to thread 2.
    Afterwards no guard is held; thread 1 alone re-reads: lock at 4, check at 4. *)
Definition ex_inits : list (blk * lstate) := [(1%nat, linit 1)].
Definition ex_pre : list gev :=
  [(1%nat, ERLock 1%nat 0); (1%nat, ERLock 2%nat 0); (1%nat, EUpgrade 2%nat 0 true); (1%nat, EStore 2%nat 0%nat 7);
   (1%nat, EWUnlock 2%nat 4); (1%nat, ECheck 1%nat 0 4)].
Definition ex_suf : list gev := [(1%nat, ERLock 1%nat 4); (1%nat, ELoad 1%nat 0%nat 7); (1%nat, ECheck 1%nat 4 4)].

Example C14d_ex_accepted : olc_trace_ok ex_inits (ex_pre ++ ex_suf) = true /\ held_after [] ex_pre = [] /\ quiet_g ex_suf = true.
Proof. vm_compute. auto. Qed.

Example C14d_ex_inits_ok : inits_ok ex_inits.
Proof. intros b s0 [E|[]]; injection E as _ <-; (split; [apply linit_inv|reflexivity]). Qed.

Example C14d_ex_charged : exists t' v', t' <> 1%nat /\
  In (EUpgrade t' v' true) [ERLock 2%nat 0; EUpgrade 2%nat 0 true; EStore 2%nat 0%nat 7; EWUnlock 2%nat 4].
Proof.
  apply (C14d_restart_charged_to_other ex_inits (ex_pre ++ ex_suf) 1%nat (linit 1) [] 1%nat 0 _ 4
           (map snd ex_suf)).
  - vm_compute. reflexivity.
  - exact C14d_ex_inits_ok.
  - now left.
  - vm_compute. reflexivity.
  - reflexivity.
  - discriminate.
  - intros v' [H|[H|[H|[H|[]]]]]; discriminate.
Qed.

Example C14d_ex_alone : 4 = 4 /\ w_is_write_locked 4 = false.
Proof.
  apply (C14d_alone_never_restarts ex_inits ex_pre ex_suf 1%nat (linit 1) [] 1%nat 4 [ELoad 1%nat 0%nat 7] 4 []).
  - exact (proj1 C14d_ex_accepted).
  - exact C14d_ex_inits_ok.
  - now left.
  - reflexivity.
  - reflexivity.
  - vm_compute. reflexivity.
Qed.
