(** Proofs for M-PTR (C17): any balanced method table makes the wrappers act
    as raw pointers, and keeps the registry equal (as a multiset) to the
    non-null addresses of the live wrappers. *)
From Coq Require Import List String ZArith Bool Permutation.
From Unodb Require Import Ptr.PtrShape Ptr.PtrModel.
Import ListNotations.
Local Open Scope string_scope.
Local Open Scope list_scope.
Local Open Scope Z_scope.

Lemma find_pm_In : forall tbl n b, find_pm tbl n = Some b -> In (n, b) tbl.
Proof.
  induction tbl as [|[m c] tbl IH]; intros n b H; cbn [find_pm] in H.
  - discriminate H.
  - destruct (String.eqb m n) eqn:E.
    + apply String.eqb_eq in E. injection H as H. subst. left. reflexivity.
    + right. apply IH. exact H.
Qed.

Lemma balanced_required : forall tbl n, balanced tbl = true -> In n required ->
  exists b, find_pm tbl n = Some b /\ method_balanced tbl (n, b) = true.
Proof.
  intros tbl n Hb Hin. unfold balanced in Hb. apply andb_true_iff in Hb. destruct Hb as [Hall Hreq].
  rewrite forallb_forall in Hall. rewrite forallb_forall in Hreq.
  specialize (Hreq n Hin). destruct (find_pm tbl n) as [b|] eqn:E; [|discriminate Hreq].
  exists b. split; [reflexivity|]. apply Hall. apply find_pm_In. exact E.
Qed.

(** [method_balanced] determines the body from the name *)
Definition std_table : list (string * list pstmt) :=
  [ ("ctor_ptr", [PInit PArg; PReg]); ("ctor_copy", [PInit POther; PReg]); ("ctor_move", [PInit PExchangeOther]);
    ("dtor", [PUnreg]); ("assign_copy", [PSelfGuard; PUnreg; PSet POther; PReg; PRetSelf]);
    ("assign_move", [PUnreg; PSet PExchangeOther; PRetSelf]);
    ("pre_inc", [PUnreg; PSet PInc; PReg; PRetSelf]); ("pre_dec", [PUnreg; PSet PDec; PReg; PRetSelf]);
    ("add_assign", [PUnreg; PSet PAddN; PReg; PRetSelf]); ("sub_assign", [PUnreg; PSet PSubN; PReg; PRetSelf]);
    ("post_inc", [PCopyToResult; PCallSelf "pre_inc"; PRetResult]);
    ("post_dec", [PCopyToResult; PCallSelf "pre_dec"; PRetResult]);
    ("add", [PCopyToResult; PCallResult "add_assign"; PRetResult]);
    ("sub", [PCopyToResult; PCallResult "sub_assign"; PRetResult]) ].

Lemma std_required : forall n b, In (n, b) std_table -> In n required.
Proof.
  assert (H : forallb (fun nb => existsb (String.eqb (fst nb)) required) std_table = true) by reflexivity.
  intros n b Hin. rewrite forallb_forall in H. specialize (H _ Hin). cbn [fst] in H.
  apply existsb_exists in H as (m & Hm & E). apply String.eqb_eq in E. subst m. exact Hm.
Qed.

Lemma method_balanced_std : forall tbl n b b', method_balanced tbl (n, b) = true ->
  find_pm std_table n = Some b' -> b = b'.
Proof.
  intros tbl n b b' Hm Hs. cbn [method_balanced] in Hm.
  repeat match type of Hm with
         | context [match ?x with _ => _ end] => is_var x; destruct x; try discriminate Hm
         end;
  repeat match type of Hm with
         | (_ || _) = true => apply orb_true_iff in Hm; destruct Hm as [Hm|Hm]
         | (_ && _) = true => apply andb_true_iff in Hm; destruct Hm as [Hm ?]
         end;
  apply String.eqb_eq in Hm; subst n; lazy in Hs; try discriminate Hs;
  repeat match goal with H : String.eqb _ _ = true |- _ => apply String.eqb_eq in H; subst end;
  try discriminate; injection Hs as <-; reflexivity.
Qed.

Lemma std_body : forall tbl n b, balanced tbl = true -> find_pm std_table n = Some b -> find_pm tbl n = Some b.
Proof.
  intros tbl n b Hb Hs.
  destruct (balanced_required tbl n Hb (std_required n b (find_pm_In _ _ _ Hs))) as [b' [Hf Hm]].
  rewrite Hf. f_equal. eapply method_balanced_std; eassumption.
Qed.

Lemma lookup_update_eq : forall l d x v, lookup d l = Some v -> lookup d (update d x l) = Some x.
Proof.
  induction l as [|[j w] l IH]; intros d x v H; cbn [lookup update] in *.
  - discriminate H.
  - destruct (Nat.eqb d j) eqn:E; cbn [lookup]; rewrite E.
    + reflexivity.
    + eapply IH. exact H.
Qed.

Lemma lookup_update_neq : forall l i j x, i <> j -> lookup i (update j x l) = lookup i l.
Proof.
  induction l as [|[k w] l IH]; intros i j x Hne; cbn [lookup update].
  - reflexivity.
  - destruct (Nat.eqb j k) eqn:E; cbn [lookup].
    + apply Nat.eqb_eq in E. subst k. apply Nat.eqb_neq in Hne. rewrite Hne. reflexivity.
    + destruct (Nat.eqb i k); [reflexivity|]. apply IH. exact Hne.
Qed.

Lemma remove_obj_update : forall l d x, remove_obj d (update d x l) = remove_obj d l.
Proof.
  induction l as [|[k w] l IH]; intros d x; cbn [remove_obj update].
  - reflexivity.
  - destruct (Nat.eqb d k) eqn:E; cbn [remove_obj]; rewrite E.
    + reflexivity.
    + rewrite IH. reflexivity.
Qed.

(** what [PReg] / [PUnreg] do to the registry: a null address is neither entered nor removed *)
Definition consnz (v : Z) (r : list Z) : list Z := if v =? 0 then r else v :: r.
Definition unreg (v : Z) (r : list Z) : list Z := if v =? 0 then r else remove_one v r.
(** [lnn (vals s)] is [live_nonnull s]; over the bare list, to be used while a body is still running *)
Definition lnn (l : list (oid * Z)) : list Z := filter (fun v => negb (v =? 0)) (map snd l).

Lemma lnn_cons : forall d v l, lnn ((d, v) :: l) = consnz v (lnn l).
Proof. intros d v l. unfold lnn, consnz. cbn [map snd filter]. destruct (v =? 0); reflexivity. Qed.

Lemma consnz_perm : forall v a b, Permutation a b -> Permutation (consnz v a) (consnz v b).
Proof. intros v a b H. unfold consnz. destruct (v =? 0); [exact H|]. apply perm_skip. exact H. Qed.

Lemma consnz_swap : forall a b r, Permutation (consnz a (consnz b r)) (consnz b (consnz a r)).
Proof. intros a b r. unfold consnz. destruct (a =? 0); destruct (b =? 0); try reflexivity. apply perm_swap. Qed.

Lemma consnz_zero : forall r, consnz 0 r = r.
Proof. reflexivity. Qed.

Lemma lnn_split : forall l d v, lookup d l = Some v -> Permutation (lnn l) (consnz v (lnn (remove_obj d l))).
Proof.
  induction l as [|[j w] l IH]; intros d v H; cbn [lookup remove_obj] in *.
  - discriminate H.
  - destruct (Nat.eqb d j).
    + injection H as H. subst w. rewrite lnn_cons. reflexivity.
    + rewrite !lnn_cons. eapply perm_trans; [apply consnz_perm; apply IH; exact H|]. apply consnz_swap.
Qed.

Lemma lnn_update : forall l d x v, lookup d l = Some v ->
  Permutation (lnn (update d x l)) (consnz x (lnn (remove_obj d l))).
Proof.
  intros l d x v H. rewrite <- (remove_obj_update l d x). apply lnn_split. eapply lookup_update_eq. exact H.
Qed.

Lemma remove_one_in : forall v r, In v r -> Permutation r (v :: remove_one v r).
Proof.
  intros v r. induction r as [|a r IH]; intros Hin; cbn [remove_one].
  - destruct Hin.
  - destruct (v =? a) eqn:E.
    + apply Z.eqb_eq in E. subst a. reflexivity.
    + destruct Hin as [Ha|Hin].
      * subst a. rewrite Z.eqb_refl in E. discriminate E.
      * eapply perm_trans; [apply perm_skip; apply IH; exact Hin|]. apply perm_swap.
Qed.

Lemma unreg_perm : forall v r r', Permutation r (consnz v r') -> Permutation (unreg v r) r'.
Proof.
  intros v r r' H. unfold unreg, consnz in *. destruct (v =? 0); [exact H|].
  assert (Hin : In v r). { eapply Permutation_in; [apply Permutation_sym; exact H|]. left. reflexivity. }
  eapply Permutation_cons_inv. eapply perm_trans; [apply Permutation_sym; apply remove_one_in; exact Hin|]. exact H.
Qed.

Lemma unreg_consnz : forall v r, unreg v (consnz v r) = r.
Proof.
  intros v r. unfold unreg, consnz. destruct (v =? 0) eqn:E; [reflexivity|].
  cbn [remove_one]. rewrite Z.eqb_refl. reflexivity.
Qed.

Definition getv (i : oid) (l : list (oid * Z)) : Z := match lookup i l with Some x => x | None => 0 end.

Definition spec_step (s : pstate) (o : pop) : pstate :=
  let g i := getv i (vals s) in
  let mut d x := {| vals := update d x (vals s); reg := consnz x (unreg (g d) (reg s)) |} in
  match o with
  | OpCtorPtr d p => {| vals := (d, p) :: vals s; reg := consnz p (reg s) |}
  | OpCtorDefault d => {| vals := (d, 0) :: vals s; reg := reg s |}
  | OpCtorCopy d src => {| vals := (d, g src) :: vals s; reg := consnz (g src) (reg s) |}
  | OpCtorMove d src => {| vals := update src 0 ((d, g src) :: vals s); reg := reg s |}
  | OpAssignCopy d src => mut d (g src)
  | OpAssignMove d src => {| vals := update src 0 (update d (g src) (vals s)); reg := unreg (g d) (reg s) |}
  | OpPreInc d => mut d (g d + 1)
  | OpPreDec d => mut d (g d - 1)
  | OpPostInc d r => {| vals := update d (g d + 1) ((r, g d) :: vals s);
                        reg := consnz (g d + 1) (unreg (g d) (consnz (g d) (reg s))) |}
  | OpPostDec d r => {| vals := update d (g d - 1) ((r, g d) :: vals s);
                        reg := consnz (g d - 1) (unreg (g d) (consnz (g d) (reg s))) |}
  | OpAddAssign d n => mut d (g d + n)
  | OpSubAssign d n => mut d (g d - n)
  | OpAdd d r n => {| vals := (r, g d + n) :: vals s; reg := consnz (g d + n) (reg s) |}
  | OpSub d r n => {| vals := (r, g d - n) :: vals s; reg := consnz (g d - n) (reg s) |}
  | OpDtor d => {| vals := remove_obj d (vals s); reg := unreg (g d) (reg s) |}
  end.

Lemma spec_step_raw : forall s o, vals (spec_step s o) = raw_step (vals s) o.
Proof. intros s o. destruct o; reflexivity. Qed.

Lemma live_lookup : forall i s, live i s = true -> exists v, lookup i (vals s) = Some v.
Proof.
  intros i s H. unfold live, fresh in H. destruct (lookup i (vals s)) as [v|].
  - exists v. reflexivity.
  - discriminate H.
Qed.

Lemma fresh_lookup : forall i s, fresh i s = true -> lookup i (vals s) = None.
Proof. intros i s H. unfold fresh in H. destruct (lookup i (vals s)); [discriminate H|reflexivity]. Qed.

Lemma live_fresh_neq : forall i j s, live i s = true -> fresh j s = true -> i <> j.
Proof.
  intros i j s Hl Hf E. subst j. unfold live in Hl. rewrite Hf in Hl. discriminate Hl.
Qed.

(** [run]'s body shares [let]-bound subterms, so unfolding it in place over a
    whole method body duplicates them at every statement; these equations are
    what the proofs below rewrite with instead. *)

Section Steps.
Variables (tbl : list (string * list pstmt)) (f : nat) (b : list pstmt).
Variables (self : oid) (other : option oid) (arg : Z) (res : oid) (vs : list (oid * Z)) (rg : list Z).

Definition other_val : Z := match other with Some o => getv o vs | None => 0 end.
Definition exchanged (e : pexpr) (l : list (oid * Z)) : list (oid * Z) :=
  match e, other with PExchangeOther, Some o => update o 0 l | _, _ => l end.

Lemma run_init e : lookup self vs = None ->
  run tbl (S f) (PInit e :: b) self other arg res {| vals := vs; reg := rg |} =
  run tbl f b self other arg res {| vals := exchanged e ((self, eval e 0 other_val arg) :: vs); reg := rg |}.
Proof. intros H. unfold other_val, exchanged, getv. cbn [run vals reg]. rewrite H. destruct e, other; reflexivity. Qed.

Lemma run_set e v : lookup self vs = Some v ->
  run tbl (S f) (PSet e :: b) self other arg res {| vals := vs; reg := rg |} =
  run tbl f b self other arg res {| vals := exchanged e (update self (eval e v other_val arg) vs); reg := rg |}.
Proof. intros H. unfold other_val, exchanged, getv. cbn [run vals reg]. rewrite H. destruct e, other; reflexivity. Qed.

Lemma run_reg v : lookup self vs = Some v ->
  run tbl (S f) (PReg :: b) self other arg res {| vals := vs; reg := rg |} =
  run tbl f b self other arg res {| vals := vs; reg := consnz v rg |}.
Proof. intros H. cbn [run vals reg]. rewrite H. reflexivity. Qed.

Lemma run_unreg v : lookup self vs = Some v ->
  run tbl (S f) (PUnreg :: b) self other arg res {| vals := vs; reg := rg |} =
  run tbl f b self other arg res {| vals := vs; reg := unreg v rg |}.
Proof. intros H. cbn [run vals reg]. rewrite H. reflexivity. Qed.

Lemma run_guard o s : other = Some o -> Nat.eqb o self = false ->
  run tbl (S f) (PSelfGuard :: b) self other arg res s = run tbl f b self other arg res s.
Proof. intros -> H. cbn [run]. rewrite H. reflexivity. Qed.

Lemma run_ret_self s : run tbl (S f) (PRetSelf :: b) self other arg res s = Some s.
Proof. reflexivity. Qed.
Lemma run_ret_result s : run tbl (S f) (PRetResult :: b) self other arg res s = Some s.
Proof. reflexivity. Qed.
Lemma run_nil s : run tbl (S f) [] self other arg res s = Some s.
Proof. reflexivity. Qed.
End Steps.

(* a lookup in [vals] after conses and [update]s, from the lookups and disequalities in the context *)
Ltac lk := first [ eassumption | reflexivity
                 | cbn [lookup]; rewrite ?Nat.eqb_refl; first [eassumption | reflexivity]
                 | erewrite lookup_update_eq by eassumption; reflexivity
                 | rewrite lookup_update_neq by assumption; lk ].

(* rewrites with every [lookup _ _ = _] and [Nat.eqb _ _ = false] of the context *)
Ltac norm :=
  unfold other_val, exchanged, getv; cbn [eval lookup update vals reg];
  repeat first [ rewrite Nat.eqb_refl
               | match goal with H : lookup _ _ = _ |- _ => rewrite H end
               | match goal with H : Nat.eqb _ _ = false |- _ => rewrite H end ].

(* runs a straight-line body with the equations of Section Steps; the side condition of each is closed by [lk] *)
Ltac go :=
  repeat (first [ rewrite run_nil | rewrite run_ret_self | rewrite run_ret_result
                | erewrite run_unreg by lk | erewrite run_reg by lk
                | erewrite run_set by lk | erewrite run_init by lk
                | erewrite run_guard by lk ]; norm).

(* after [go]: the state reached is [spec_step]'s *)
Ltac fin := unfold spec_step; norm; try reflexivity.

(** [apart]: that two ids differ, in every form the rewriting below asks for *)

Definition has (vs : list (oid * Z)) (i : oid) : Prop := exists v, lookup i vs = Some v.
Definition apart (i j : oid) : Prop := Nat.eqb i j = false /\ Nat.eqb j i = false /\ i <> j /\ j <> i.

Lemma neq_apart i j : i <> j -> apart i j.
Proof.
  intros H. assert (H' : j <> i) by (intros E; apply H; symmetry; exact E).
  repeat split; try assumption; apply Nat.eqb_neq; assumption.
Qed.

Lemma pop_ok_facts vs rg o : pop_ok {| vals := vs; reg := rg |} o = true ->
  match o with
  | OpCtorPtr d _ | OpCtorDefault d => lookup d vs = None
  | OpCtorCopy d src | OpCtorMove d src => lookup d vs = None /\ has vs src /\ apart src d
  | OpAssignCopy d src | OpAssignMove d src => has vs d /\ has vs src /\ apart d src
  | OpPreInc d | OpPreDec d | OpAddAssign d _ | OpSubAssign d _ | OpDtor d => has vs d
  | OpPostInc d r | OpPostDec d r | OpAdd d r _ | OpSub d r _ => has vs d /\ lookup r vs = None /\ apart d r
  end.
Proof.
  assert (L : forall i, live i {| vals := vs; reg := rg |} = true -> has vs i)
    by (intros i H; exact (live_lookup _ _ H)).
  assert (F : forall i, fresh i {| vals := vs; reg := rg |} = true -> lookup i vs = None)
    by (intros i H; exact (fresh_lookup _ _ H)).
  assert (A : forall i j, live i {| vals := vs; reg := rg |} = true ->
                          fresh j {| vals := vs; reg := rg |} = true -> apart i j)
    by (intros i j Hi Hj; exact (neq_apart i j (live_fresh_neq i j _ Hi Hj))).
  (* the goals, in the order of [pop]'s constructors, by the five cases of [pop_ok] *)
  destruct o; cbn [pop_ok]; intros H.
  1, 2, 7, 8, 11, 12, 15: auto.
  1, 2: apply andb_true_iff in H as [Hd Hs]; auto.
  1, 2: apply andb_true_iff in H as [[Hd Hs]%andb_true_iff N]; split; [|split]; auto;
        apply neq_apart, Nat.eqb_neq, negb_true_iff, N.
  all: apply andb_true_iff in H as [Hd Hr]; auto.
Qed.

(* replaces [Hok : pop_ok _ o = true] by its consequences of [pop_ok_facts], as separate hypotheses *)
Ltac facts Hok :=
  apply pop_ok_facts in Hok; cbn iota in Hok; unfold has, apart in Hok; decompose [and ex] Hok.

Lemma run_ctor_copy_body : forall tbl f r d arg vs rg dv,
  lookup r vs = None -> lookup d vs = Some dv ->
  run tbl (S (S (S f))) [PInit POther; PReg] r (Some d) arg r {| vals := vs; reg := rg |} =
  Some {| vals := (r, dv) :: vs; reg := consnz dv rg |}.
Proof. intros tbl f r d arg vs rg dv Hr Hd. go. reflexivity. Qed.

Lemma run_mut : forall tbl f e d arg res vs rg dv, lookup d vs = Some dv ->
  run tbl (S (S (S (S f)))) [PUnreg; PSet e; PReg; PRetSelf] d None arg res {| vals := vs; reg := rg |} =
  Some {| vals := update d (eval e dv 0 arg) vs; reg := consnz (eval e dv 0 arg) (unreg dv rg) |}.
Proof. intros tbl f e d arg res vs rg dv Hd. destruct e; go; reflexivity. Qed.

Lemma run_copy_to_result : forall tbl f cb b' self other arg res s s1,
  find_pm tbl "ctor_copy" = Some cb -> run tbl f cb res (Some self) 0 res s = Some s1 ->
  run tbl (S f) (PCopyToResult :: b') self other arg res s = run tbl f b' self other arg res s1.
Proof. intros tbl f cb b' self other arg res s s1 Hf Hr. cbn [run]. rewrite Hf, Hr. reflexivity. Qed.

Lemma run_call_self : forall tbl f m mb b' self other arg res s s1,
  find_pm tbl m = Some mb -> run tbl f mb self None arg res s = Some s1 ->
  run tbl (S f) (PCallSelf m :: b') self other arg res s = run tbl f b' self other arg res s1.
Proof. intros tbl f m mb b' self other arg res s s1 Hf Hr. cbn [run]. rewrite Hf, Hr. reflexivity. Qed.

Lemma run_call_result : forall tbl f m mb b' self other arg res s s1,
  find_pm tbl m = Some mb -> run tbl f mb res None arg res s = Some s1 ->
  run tbl (S f) (PCallResult m :: b') self other arg res s = run tbl f b' self other arg res s1.
Proof. intros tbl f m mb b' self other arg res s s1 Hf Hr. cbn [run]. rewrite Hf, Hr. reflexivity. Qed.

(* post-increment and the like: [PCopyToResult] (the copy constructor's body), then a call of a mutator's
   body on self or on the result, then the rest by [go] *)
Ltac nested Hb :=
  erewrite run_copy_to_result;
    [| eapply std_body; [exact Hb|reflexivity] | apply run_ctor_copy_body; eassumption ];
  first [ erewrite run_call_self; [| eapply std_body; [exact Hb|reflexivity] | apply run_mut; norm; reflexivity ]
        | erewrite run_call_result; [| eapply std_body; [exact Hb|reflexivity] | apply run_mut; norm; reflexivity ] ];
  go; unfold spec_step; norm.

Lemma pstep_spec : forall tbl s o, balanced tbl = true -> pop_ok s o = true ->
  pstep tbl s o = Some (spec_step s o).
Proof.
  intros tbl [vs rg] o Hb Hok.
  destruct o as [d p|d|d src|d src|d src|d src|d|d|d r|d r|d n|d n|d r n|d r n|d];
    facts Hok; unfold pstep, call.
  - rewrite (std_body tbl "ctor_ptr" _ Hb eq_refl). go. fin.
  - reflexivity.
  - rewrite (std_body tbl "ctor_copy" _ Hb eq_refl). go. fin.
  - rewrite (std_body tbl "ctor_move" _ Hb eq_refl). go. fin.
  - rewrite (std_body tbl "assign_copy" _ Hb eq_refl). go. fin.
  - rewrite (std_body tbl "assign_move" _ Hb eq_refl). go. fin.
  - rewrite (std_body tbl "pre_inc" _ Hb eq_refl). go. fin.
  - rewrite (std_body tbl "pre_dec" _ Hb eq_refl). go. fin.
  - rewrite (std_body tbl "post_inc" _ Hb eq_refl). nested Hb. reflexivity.
  - rewrite (std_body tbl "post_dec" _ Hb eq_refl). nested Hb. reflexivity.
  - rewrite (std_body tbl "add_assign" _ Hb eq_refl). go. fin.
  - rewrite (std_body tbl "sub_assign" _ Hb eq_refl). go. fin.
  - rewrite (std_body tbl "add" _ Hb eq_refl). nested Hb. rewrite unreg_consnz. reflexivity.
  - rewrite (std_body tbl "sub" _ Hb eq_refl). nested Hb. rewrite unreg_consnz. reflexivity.
  - rewrite (std_body tbl "dtor" _ Hb eq_refl). go. fin.
Qed.

Definition Inv (s : pstate) : Prop := Permutation (reg s) (lnn (vals s)).

Lemma inv_new : forall vs rg d x, Permutation rg (lnn vs) -> Permutation (consnz x rg) (lnn ((d, x) :: vs)).
Proof. intros vs rg d x HI. rewrite lnn_cons. apply consnz_perm. exact HI. Qed.

Lemma inv_mut : forall vs rg d dv x, lookup d vs = Some dv -> Permutation rg (lnn vs) ->
  Permutation (consnz x (unreg dv rg)) (lnn (update d x vs)).
Proof.
  intros vs rg d dv x Hd HI.
  eapply perm_trans; [|apply Permutation_sym; eapply lnn_update; exact Hd].
  apply consnz_perm. apply unreg_perm.
  eapply perm_trans; [exact HI|]. apply lnn_split. exact Hd.
Qed.

Lemma inv_drop : forall vs rg d dv, lookup d vs = Some dv -> Permutation rg (lnn vs) ->
  Permutation (unreg dv rg) (lnn (remove_obj d vs)).
Proof.
  intros vs rg d dv Hd HI. apply unreg_perm.
  eapply perm_trans; [exact HI|]. apply lnn_split. exact Hd.
Qed.

Lemma inv_null : forall vs src sv, lookup src vs = Some sv ->
  Permutation (consnz sv (lnn (update src 0 vs))) (lnn vs).
Proof.
  intros vs src sv Hs. apply Permutation_sym.
  eapply perm_trans; [apply lnn_split; exact Hs|]. apply consnz_perm.
  apply Permutation_sym. eapply perm_trans; [eapply lnn_update; exact Hs|]. rewrite consnz_zero. reflexivity.
Qed.

Lemma spec_step_inv : forall s o, pop_ok s o = true -> Inv s -> Inv (spec_step s o).
Proof.
  intros [vs rg] o Hok HI. unfold Inv in *. cbn [vals reg] in HI.
  destruct o as [d p|d|d src|d src|d src|d src|d|d|d r|d r|d n|d n|d r n|d r n|d];
    facts Hok; unfold spec_step, getv; cbn [vals reg];
    repeat match goal with H : lookup _ _ = _ |- _ => rewrite H end.
  - apply inv_new. exact HI.
  - exact (inv_new vs rg d 0 HI).
  - apply inv_new. exact HI.
  - norm. rewrite lnn_cons.
    eapply perm_trans; [exact HI|]. apply Permutation_sym. apply inv_null. assumption.
  - eapply inv_mut; eassumption.
  - (* assign_move: set [d] to the value of [src], then null [src] *)
    match goal with Hd : lookup d vs = Some ?dv, Hs : lookup src vs = Some ?sv |- _ =>
      rewrite <- (unreg_consnz sv (unreg dv rg));
      apply (inv_mut (update d sv vs) _ src sv 0); [|exact (inv_mut vs rg d dv sv Hd HI)]
    end.
    rewrite lookup_update_neq by assumption. assumption.
  - eapply inv_mut; eassumption.
  - eapply inv_mut; eassumption.
  - eapply inv_mut; [norm; reflexivity|]. apply inv_new. exact HI.
  - eapply inv_mut; [norm; reflexivity|]. apply inv_new. exact HI.
  - eapply inv_mut; eassumption.
  - eapply inv_mut; eassumption.
  - apply inv_new. exact HI.
  - apply inv_new. exact HI.
  - eapply inv_drop; eassumption.
Qed.

Lemma prun_gen : forall tbl, balanced tbl = true -> forall ops s s', Inv s -> prun tbl s ops = Some s' ->
  Inv s' /\ vals s' = fold_left raw_step ops (vals s).
Proof.
  intros tbl Hb ops. induction ops as [|o ops IH]; intros s s' HI Hrun; cbn [prun fold_left] in *.
  - injection Hrun as Hrun. subst s'. split; [exact HI|reflexivity].
  - destruct (pop_ok s o) eqn:Hok; [|discriminate Hrun].
    rewrite (pstep_spec tbl s o Hb Hok) in Hrun.
    destruct (IH _ _ (spec_step_inv s o Hok HI) Hrun) as [HI' Hv].
    split; [exact HI'|]. rewrite Hv. rewrite spec_step_raw. reflexivity.
Qed.

Lemma inv_pinit : Inv pinit.
Proof. unfold Inv, pinit, lnn. cbn. apply perm_nil. Qed.

Theorem prun_raw : forall tbl ops, balanced tbl = true ->
  forall s, prun tbl pinit ops = Some s ->
  forall i, lookup i (vals s) = lookup i (fold_left raw_step ops []).
Proof.
  intros tbl ops Hb s Hrun i.
  destruct (prun_gen tbl Hb ops pinit s inv_pinit Hrun) as [_ Hv]. rewrite Hv. reflexivity.
Qed.

Theorem prun_registry : forall tbl ops s, balanced tbl = true ->
  prun tbl pinit ops = Some s -> Permutation (reg s) (live_nonnull s).
Proof.
  intros tbl ops s Hb Hrun.
  destruct (prun_gen tbl Hb ops pinit s inv_pinit Hrun) as [HI _]. exact HI.
Qed.

Theorem pstep_total : forall tbl ops s o, balanced tbl = true ->
  prun tbl pinit ops = Some s -> pop_ok s o = true -> exists s', pstep tbl s o = Some s'.
Proof.
  intros tbl ops s o Hb _ Hok. exists (spec_step s o). apply pstep_spec; assumption.
Qed.

Theorem verdict_exact : forall tbl ops s, balanced tbl = true ->
  prun tbl pinit ops = Some s -> (quiescent_allowed s = true <-> live_nonnull s = []).
Proof.
  intros tbl ops s Hb Hrun. pose proof (prun_registry tbl ops s Hb Hrun) as HP.
  unfold quiescent_allowed. split; intros H.
  - destruct (reg s) as [|a r]; [|discriminate H]. apply Permutation_nil. exact HP.
  - rewrite H in HP. apply Permutation_sym in HP. apply Permutation_nil in HP. rewrite HP. reflexivity.
Qed.
