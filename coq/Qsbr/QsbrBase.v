(** Basic list / counting lemmas for the QSBR model proofs. *)
From Coq Require Import List ZArith Lia Permutation.
From Unodb Require Import Qsbr.QsbrModel.
Import ListNotations.
Local Open Scope Z_scope.

Definition b2z (b : bool) : Z := if b then 1 else 0.

Fixpoint cnt (f : thr -> bool) (l : list thr) : Z :=
  match l with [] => 0 | x :: l' => b2z (f x) + cnt f l' end.

Lemma cnt_filter : forall f l, cnt f l = Z.of_nat (length (filter f l)).
Proof.
  induction l as [|x l IH]; [reflexivity|].
  cbn [cnt filter]. destruct (f x); cbn [b2z length]; lia.
Qed.

Lemma cnt_nonneg : forall f l, 0 <= cnt f l.
Proof. intros. rewrite cnt_filter. lia. Qed.

Lemma cnt_le_length : forall f l, cnt f l <= Z.of_nat (length l).
Proof.
  induction l as [|x l IH]; cbn [cnt length]; [lia|]. destruct (f x); cbn [b2z]; lia.
Qed.

Lemma cnt_le_impl : forall f g l, (forall x, f x = true -> g x = true) -> cnt f l <= cnt g l.
Proof.
  intros f g l H. induction l as [|x l IH]; cbn [cnt]; [lia|].
  destruct (f x) eqn:Hf; [rewrite (H x Hf)|destruct (g x)]; cbn [b2z]; lia.
Qed.

Lemma cnt_pos_ex : forall f l, 1 <= cnt f l -> exists u, f (nth u l thr0) = true.
Proof.
  intros f l. induction l as [|x l IH]; cbn [cnt]; [lia|].
  destruct (f x) eqn:Hf; cbn [b2z].
  - intros _. exists O. exact Hf.
  - intros H. destruct IH as [u Hu]; [lia|]. exists (S u). exact Hu.
Qed.

Lemma length_set_nth : forall l i x, length (set_nth_thr i x l) = length l.
Proof.
  induction l as [|y l IH]; intros [|i] x; cbn [set_nth_thr length]; auto.
Qed.

Lemma nth_set_nth : forall l i j x, (i < length l)%nat ->
  nth j (set_nth_thr i x l) thr0 = if Nat.eqb j i then x else nth j l thr0.
Proof.
  induction l as [|y l IH]; intros i j x Hi; cbn [length] in Hi; [lia|].
  destruct i as [|i]; destruct j as [|j]; cbn [set_nth_thr nth Nat.eqb]; auto.
  apply IH. lia.
Qed.

Lemma nth_set_nth_same : forall l i x, (i < length l)%nat -> nth i (set_nth_thr i x l) thr0 = x.
Proof. intros. rewrite nth_set_nth by auto. now rewrite Nat.eqb_refl. Qed.

Lemma nth_set_nth_other : forall l i j x, j <> i -> nth j (set_nth_thr i x l) thr0 = nth j l thr0.
Proof.
  induction l as [|y l IH]; intros i j x Hne.
  - destruct i; reflexivity.
  - destruct i as [|i]; destruct j as [|j]; cbn [set_nth_thr nth]; auto; try congruence.
Qed.

Lemma cnt_set_nth : forall f l i x, (i < length l)%nat ->
  cnt f (set_nth_thr i x l) = cnt f l - b2z (f (nth i l thr0)) + b2z (f x).
Proof.
  induction l as [|y l IH]; intros i x Hi; cbn [length] in Hi; [lia|].
  destruct i as [|i]; cbn [set_nth_thr cnt nth]; [lia|].
  rewrite IH by lia. lia.
Qed.

Lemma cnt_ext_idx : forall f g l,
  (forall u, (u < length l)%nat -> f (nth u l thr0) = g (nth u l thr0)) -> cnt f l = cnt g l.
Proof.
  induction l as [|y l IH]; intros H; [reflexivity|].
  cbn [cnt]. pose proof (H O) as H0. cbn [nth length] in H0. rewrite H0 by lia.
  rewrite IH; [reflexivity|]. intros u Hu. apply (H (S u)). cbn [length]. lia.
Qed.

Lemma cnt_zero_iff : forall f l, cnt f l = 0 <-> forall u, (u < length l)%nat -> f (nth u l thr0) = false.
Proof.
  intros f l. induction l as [|y l IH]; cbn [cnt length]; [split; [lia|reflexivity]|].
  pose proof (cnt_nonneg f l). split.
  - intros H0 [|u] Hu; cbn [nth]; [destruct (f y); cbn [b2z] in H0; [lia|reflexivity]|].
    apply IH; [destruct (f y); cbn [b2z] in H0; lia|lia].
  - intros Hall. pose proof (Hall O) as H0. cbn [nth] in H0. rewrite H0 by lia. cbn [b2z].
    enough (cnt f l = 0) by lia. apply IH. intros u Hu. apply (Hall (S u)). lia.
Qed.

Lemma cnt_one_unique : forall f l t, cnt f l = 1 -> (t < length l)%nat ->
  f (nth t l thr0) = true -> f thr0 = false ->
  forall u, u <> t -> f (nth u l thr0) = false.
Proof.
  intros f l t H1 Ht Hf H0 u Hne.
  destruct (Nat.ltb_spec u (length l)) as [Hu|Hu].
  - assert (Hz : cnt f (set_nth_thr t thr0 l) = 0).
    { rewrite cnt_set_nth by auto. rewrite Hf, H0. cbn [b2z]. lia. }
    pose proof (proj1 (cnt_zero_iff _ _) Hz u) as H. rewrite length_set_nth in H.
    specialize (H Hu). now rewrite nth_set_nth_other in H by auto.
  - rewrite nth_overflow by lia. exact H0.
Qed.

Lemma get_thr_init : forall n u, get_thr (qinit n) u = thr0.
Proof.
  intros n u. unfold get_thr, qinit. cbn [q_thr].
  destruct (Nat.ltb_spec u n); [apply nth_repeat|apply nth_overflow; rewrite repeat_length; lia].
Qed.

Lemma reg_lt_length : forall s t, t_reg (get_thr s t) = true -> (t < length (q_thr s))%nat.
Proof.
  intros s t H. unfold get_thr in H.
  destruct (Nat.ltb_spec t (length (q_thr s))); auto. rewrite nth_overflow in H by lia. discriminate.
Qed.

Lemma get_set_thr : forall s s' t x u, (t < length (q_thr s))%nat ->
  q_thr s' = set_nth_thr t x (q_thr s) ->
  get_thr s' u = if Nat.eqb u t then x else get_thr s u.
Proof. intros s s' t x u Ht H. unfold get_thr. rewrite H. now apply nth_set_nth. Qed.

Lemma in_remove_tid : forall t l v, In v (remove_tid t l) <-> In v l /\ v <> t.
Proof.
  induction l as [|x l IH]; intros v; cbn [remove_tid In]; [tauto|].
  destruct (Nat.eqb_spec x t) as [->|Hne].
  - rewrite IH. split; [tauto|]. intros [[->|H] Hn]; [congruence|tauto].
  - cbn [In]. rewrite IH. split.
    + intros [->|[H Hn]]; auto.
    + intros [[->|H] Hn]; auto.
Qed.

Lemma list_empty_no_in : forall (A : Type) (l : list A), (forall v, ~ In v l) -> l = [].
Proof. intros A [|x l] H; [reflexivity|]. exfalso. apply (H x). now left. Qed.

Lemma wait_of_passed : forall w t p, wait_of (ghost_passed w t) p = remove_tid t (wait_of w p).
Proof.
  induction w as [|[q ws] w IH]; intros t p; cbn [ghost_passed map wait_of fst snd]; [reflexivity|].
  destruct (Z.eqb q p); [reflexivity|]. apply IH.
Qed.

Lemma wait_of_drop : forall w f p, ~ In p f -> wait_of (ghost_drop w f) p = wait_of w p.
Proof.
  induction w as [|[q ws] w IH]; intros f p Hn; cbn [ghost_drop wait_of]; [reflexivity|].
  destruct (existsb (Z.eqb q) f) eqn:He.
  - destruct (Z.eqb_spec q p) as [->|Hne]; [|apply IH; auto].
    exfalso. apply existsb_exists in He. destruct He as [y [Hy Heq]].
    apply Z.eqb_eq in Heq. subst. auto.
  - cbn [wait_of]. destruct (Z.eqb q p); [reflexivity|]. apply IH; auto.
Qed.

(** multisets of pointers are compared through [count_occ] *)
Definition co (l : list ptr) (a : ptr) : nat := count_occ Z.eq_dec l a.

Lemma co_app : forall l1 l2 a, co (l1 ++ l2) a = (co l1 a + co l2 a)%nat.
Proof. intros. apply count_occ_app. Qed.

Lemma co_nil : forall a, co [] a = O.
Proof. reflexivity. Qed.

Lemma perm_co : forall l1 l2, (forall a, co l1 a = co l2 a) -> Permutation l1 l2.
Proof. intros. apply (Permutation_count_occ Z.eq_dec). assumption. Qed.

Lemma co_perm : forall l1 l2, Permutation l1 l2 -> forall a, co l1 a = co l2 a.
Proof. intros l1 l2 H. apply (Permutation_count_occ Z.eq_dec). assumption. Qed.

Lemma co_in : forall l a, In a l <-> (co l a > 0)%nat.
Proof. intros. apply count_occ_In. Qed.

Definition lists (x : thr) : list ptr := t_prev x ++ t_cur x.
Definition thr_lists (l : list thr) : list ptr := concat (map lists l).

Lemma pending_eq : forall s, pending s = thr_lists (q_thr s) ++ concat (q_oprev s) ++ concat (q_ocur s).
Proof. reflexivity. Qed.

Lemma co_thr_lists_set : forall l i x a, (i < length l)%nat ->
  (co (thr_lists (set_nth_thr i x l)) a + co (lists (nth i l thr0)) a = co (thr_lists l) a + co (lists x) a)%nat.
Proof.
  unfold thr_lists, lists.
  induction l as [|y l IH]; intros i x a Hi; cbn [length] in Hi; [lia|].
  destruct i as [|i]; cbn [set_nth_thr map concat nth]; rewrite !co_app.
  - lia.
  - specialize (IH i x a). rewrite !co_app in IH. lia.
Qed.

Lemma co_push : forall v l a, co (concat (push_nonempty v l)) a = (co v a + co (concat l) a)%nat.
Proof.
  intros [|y v] l a; cbn [push_nonempty]; [reflexivity|].
  cbn [concat]. now rewrite co_app.
Qed.

Lemma in_push : forall v l a, In a (concat (push_nonempty v l)) <-> In a v \/ In a (concat l).
Proof. intros. rewrite !co_in, co_push. lia. Qed.

Lemma in_thr_lists : forall l u p, In p (lists (nth u l thr0)) -> In p (thr_lists l).
Proof.
  unfold thr_lists, lists. induction l as [|y l IH]; intros u p H.
  - destruct u; cbn in H; tauto.
  - cbn [map concat]. apply in_or_app. destruct u as [|u]; cbn [nth] in H; [left; auto|right; eauto].
Qed.

Lemma in_thr_lists_inv : forall l p, In p (thr_lists l) -> exists u, (u < length l)%nat /\ In p (lists (nth u l thr0)).
Proof.
  unfold thr_lists, lists. induction l as [|y l IH]; intros p H; cbn [map concat] in H; [contradiction|].
  apply in_app_or in H. destruct H as [H|H].
  - exists O. cbn [length nth]. split; [lia|auto].
  - destruct (IH p H) as [u [Hu Hin]]. exists (S u). cbn [length nth]. split; [lia|auto].
Qed.

Lemma in_pending_iff : forall s p, In p (pending s) <->
  (exists u, In p (lists (get_thr s u))) \/ In p (concat (q_oprev s)) \/ In p (concat (q_ocur s)).
Proof.
  intros s p. rewrite pending_eq, !in_app_iff. split; (intros [H|H]; [left|right; exact H]).
  - apply in_thr_lists_inv in H. destruct H as [u [_ H]]. now exists u.
  - destruct H as [u H]. now apply in_thr_lists with (u := u).
Qed.

Lemma pending_nil : forall s, (forall u, lists (get_thr s u) = []) -> q_oprev s = [] -> q_ocur s = [] ->
  pending s = [].
Proof.
  intros s H Hp Hc. apply list_empty_no_in. intros p Hin. apply in_pending_iff in Hin.
  rewrite Hp, Hc in Hin. destruct Hin as [[u Hin]|[[]|[]]]. now rewrite H in Hin.
Qed.

Lemma nodup_co : forall l, NoDup l <-> (forall a, (co l a <= 1)%nat).
Proof. intros l. apply (NoDup_count_occ Z.eq_dec). Qed.

Lemma in_registered_others_from : forall l t i v, In v (registered_others l t i) <->
  v <> t /\ exists j, v = (i + j)%nat /\ t_reg (nth j l thr0) = true.
Proof.
  induction l as [|x l IH]; intros t i v; cbn [registered_others].
  - split; [contradiction|]. intros [_ [[|j] [_ H]]]; discriminate.
  - rewrite in_app_iff, IH. split.
    + intros [H|[Hne [j [-> Hr]]]].
      * destruct (t_reg x) eqn:Hr; [|contradiction]. destruct (Nat.eqb_spec i t); [contradiction|].
        destruct H as [<-|[]]. split; [assumption|]. exists O. split; [lia|exact Hr].
      * split; [assumption|]. exists (S j). split; [lia|exact Hr].
    + intros [Hne [[|j] [-> Hr]]]; cbn [nth] in Hr.
      * left. rewrite Hr. rewrite Nat.add_0_r in Hne. apply Nat.eqb_neq in Hne. rewrite Hne. now left.
      * right. split; [assumption|]. exists j. split; [lia|exact Hr].
Qed.

Lemma in_registered_others : forall s t v, In v (registered_others (q_thr s) t O) <->
  v <> t /\ t_reg (get_thr s v) = true.
Proof.
  intros s t v. rewrite in_registered_others_from. split.
  - intros [Hne [j [-> Hr]]]. split; assumption.
  - intros [Hne Hr]. split; [assumption|]. exists v. split; [reflexivity|exact Hr].
Qed.
