(** Drain: the first quiescent state of the last registered thread executes everything,
    and a second one finds nothing to do (Properties_C06 is stated for the two). *)
From Coq Require Import List ZArith Lia.
From Unodb Require Import Qsbr.QsbrModel Qsbr.QsbrBase Qsbr.QsbrInv Qsbr.QsbrStep Qsbr.QsbrRun.
Import ListNotations.
Local Open Scope Z_scope.

Lemma op_keeps_empty : forall s o, Inv1 s -> op_enabled s o = true -> op_new o = [] ->
  pending s = [] -> pending (fst (op_res s o)) = [].
Proof.
  intros s o I Hen Hn He. apply list_empty_no_in. intros a. rewrite co_in.
  pose proof (perm_op s o a I Hen) as Hp. rewrite He, Hn, co_nil in Hp. lia.
Qed.

(** the first quiescent state of the only registered thread changes the epoch in
    single-thread mode, which executes everything *)
Lemma drain_first : forall s t, Inv1 s -> q_T s = 1 -> op_enabled s (QQuiescent t) = true ->
  pending (fst (q_quiescent s t)) = [].
Proof.
  intros s t I HT Hen. destruct (enabled_reg _ _ Hen) as [Hr _]. cbn [op_tid is_register negb] in Hr.
  destruct (step_op s _ I Hen) as [x' ST]. cbn [op_res] in ST.
  destruct (sole_unq s t I HT Hr) as [HP Hu].
  assert (Ha : advances s (QQuiescent t) = true).
  { unfold advances. cbn [is_pass op_tid]. now rewrite Hu, HP. }
  destruct (st_flush _ _ _ _ _ ST Ha) as [Hx [Hop Hoc]]; [lia|].
  apply pending_nil; [|exact Hop|exact Hoc]. intros u.
  rewrite (step_get _ _ _ _ _ Hen ST). cbn [op_tid]. destruct (Nat.eqb_spec u t) as [_|Hne]; [exact Hx|].
  apply (i_unreg s I), (only_reg s t I HT Hr u Hne).
Qed.

Theorem drain_two_quiescent : forall n ops s fs bads t,
  qrun (qinit n) ops = Some (s, fs, bads) -> registered_count s = 1 ->
  op_enabled s (QQuiescent t) = true ->
  pending (fst (qstep (fst (qstep s (QQuiescent t))) (QQuiescent t))) = [].
Proof.
  intros n ops s fs bads t H Hrc Hen. apply qrun_inv1 in H; [|apply inv1_init].
  rewrite registered_count_cnt, <- (i_T s H) in Hrc.
  destruct (step_op s _ H Hen) as [x' ST].
  rewrite !qstep_eq. cbn [fst]. rewrite pending_next.
  apply op_keeps_empty; [now apply inv1_next| |reflexivity|rewrite pending_next; now apply drain_first].
  (* the thread is still registered after its first quiescent state *)
  change (op_enabled (fst (op_res s (QQuiescent t))) (QQuiescent t) = true).
  pose proof (step_get_self _ _ _ _ _ Hen ST) as Hx. cbn [op_tid] in Hx.
  unfold op_enabled. cbn [op_tid]. rewrite Hx, (st_reg _ _ _ _ _ ST), (st_thr _ _ _ _ _ ST), length_set_nth.
  apply andb_true_intro. split; [apply Nat.ltb_lt, (enabled_reg _ _ Hen)|reflexivity].
Qed.
