(** Due epochs.  A request in a thread's previous-interval list is executed when
    that thread observes the epoch after the one it has seen, one in its
    current-interval list one epoch later; orphaned previous / current requests
    at the next / second-next epoch change.  In the unbounded ghost epoch this
    gives every queued request a due epoch, which [exec_prev], [adv_seen] and
    [handle_orphans] never change: they only execute the requests that have
    become due.  [Moves] says so for the part of the state a call touches (the
    caller's thread object and the orphan lists). *)
From Coq Require Import List ZArith Lia.
From Unodb Require Import Qsbr.QsbrModel Qsbr.QsbrBase.
Import ListNotations.
Local Open Scope Z_scope.

(** ghost epoch last observed by thread object [x] *)
Definition seen_gep (s : qstate) (x : thr) : Z := if q_ep s =? t_ls x then q_gep s else q_gep s - 1.

Record view := {
  v_seen : Z; v_prev : list ptr; v_cur : list ptr;
  v_gep : Z; v_oprev : list (list ptr); v_ocur : list (list ptr) }.

Definition due_own (k : Z) (v : view) (p : ptr) : Prop :=
  (In p (v_prev v) /\ v_seen v + 1 <= k) \/ (In p (v_cur v) /\ v_seen v + 2 <= k).
Definition due_orph (k : Z) (v : view) (p : ptr) : Prop :=
  (In p (concat (v_oprev v)) /\ v_gep v + 1 <= k) \/ (In p (concat (v_ocur v)) /\ v_gep v + 2 <= k).
Definition vdue (k : Z) (v : view) (p : ptr) : Prop := due_own k v p \/ due_orph k v p.

Definition vown (v : view) (p : ptr) : Prop := In p (v_prev v ++ v_cur v).

Definition vco (v : view) (a : ptr) : nat :=
  (co (v_prev v) a + co (v_cur v) a + co (concat (v_oprev v)) a + co (concat (v_ocur v)) a)%nat.

Definition view_of (s : qstate) (x : thr) : view :=
  {| v_seen := seen_gep s x; v_prev := t_prev x; v_cur := t_cur x;
     v_gep := q_gep s; v_oprev := q_oprev s; v_ocur := q_ocur s |}.

(** [p] is queued somewhere with due epoch at most [k] *)
Definition due (k : Z) (s : qstate) (p : ptr) : Prop := exists u, vdue k (view_of s (get_thr s u)) p.

Lemma seen_gep_range : forall s x, q_gep s - 1 <= seen_gep s x <= q_gep s.
Proof. intros s x. unfold seen_gep. destruct (_ =? _); lia. Qed.

Lemma pending_due : forall s p, In p (pending s) -> due (q_gep s + 2) s p.
Proof.
  intros s p H. apply in_pending_iff in H. destruct H as [[u H]|[H|H]].
  - exists u. pose proof (seen_gep_range s (get_thr s u)). apply in_app_or in H.
    unfold vdue, due_own, due_orph, view_of; cbn [v_seen v_prev v_cur]. destruct H; [left; left|left; right]; split; auto; lia.
  - exists O. right. left. split; [exact H|cbn [view_of v_gep]; lia].
  - exists O. right. right. split; [exact H|cbn [view_of v_gep]; lia].
Qed.

Lemma due_pending : forall k s p, due k s p -> In p (pending s).
Proof.
  intros k s p [u H]. apply in_pending_iff. unfold vdue, due_own, due_orph, view_of in H.
  cbn [v_prev v_cur v_oprev v_ocur] in H.
  destruct H as [[[H _]|[H _]]|[[H _]|[H _]]]; [left; exists u; apply in_or_app..| |]; auto.
Qed.

Lemma vco_pending : forall s s1 t x' a, (t < length (q_thr s))%nat ->
  q_thr s1 = set_nth_thr t x' (q_thr s) ->
  (co (pending s1) a + vco (view_of s (get_thr s t)) a = co (pending s) a + vco (view_of s1 x') a)%nat.
Proof.
  intros s s1 t x' a Ht Hthr. rewrite !pending_eq, Hthr, !co_app.
  pose proof (co_thr_lists_set (q_thr s) t x' a Ht) as H. unfold lists in H. rewrite !co_app in H.
  unfold vco, view_of, get_thr. cbn [v_prev v_cur v_oprev v_ocur]. lia.
Qed.

Lemma due_gep : forall k s p, due k s p -> q_gep s <= k.
Proof.
  intros k s p [u H]. pose proof (seen_gep_range s (get_thr s u)).
  unfold vdue, due_own, due_orph, view_of in H. cbn [v_seen v_gep] in H. lia.
Qed.

(** [v], [v']: the part of the state a call touches, before and after; [f]: executed;
    [new]: retired by the call.  In single-thread mode [stm] requests are executed before
    they are due.  [mv_co]: requests are only moved between lists or executed. *)
Record Moves (stm : bool) (new : list ptr) (v v' : view) (f : list ptr) : Prop := {
  mv_gep : v_gep v <= v_gep v';
  mv_fwd : forall k p, vdue k v p -> vdue k v' p \/ In p f;
  mv_bwd : forall k p, vdue k v' p -> vdue k v p \/ (In p new /\ v_seen v' + 2 <= k);
  mv_own : forall p, vown v' p -> vown v p \/ In p new;
  mv_free : forall p, In p f ->
    vdue (v_gep v') v p \/ (stm = true /\ (vown v p \/ In p new \/ v_gep v < v_gep v'));
  mv_co : forall a, (vco v' a + co f a = vco v a + co new a)%nat }.

Lemma vdue_mono : forall k k' v p, k <= k' -> vdue k v p -> vdue k' v p.
Proof. unfold vdue, due_own, due_orph. intros. intuition lia. Qed.

Lemma moves_trans : forall stm new v v1 v2 f1 f2,
  Moves stm [] v v1 f1 -> Moves stm new v1 v2 f2 -> Moves stm new v v2 (f1 ++ f2).
Proof.
  intros stm new v v1 v2 f1 f2 [G1 F1 B1 O1 X1 C1] [G2 F2 B2 O2 X2 C2]. constructor.
  - lia.
  - intros k p H. rewrite in_app_iff. destruct (F1 k p H) as [H1|H1]; [|tauto].
    destruct (F2 k p H1); tauto.
  - intros k p H. destruct (B2 k p H) as [H1|H1]; [|tauto].
    destruct (B1 k p H1) as [H0|[[] _]]. tauto.
  - intros p H. destruct (O2 p H) as [H1|H1]; [|tauto]. destruct (O1 p H1) as [H0|[]]. tauto.
  - intros p H. apply in_app_or in H. destruct H as [H|H].
    + destruct (X1 p H) as [H1|[Hs [H1|[[]|H1]]]].
      * left. apply (vdue_mono (v_gep v1)); assumption.
      * tauto.
      * right. split; [assumption|]. right. right. lia.
    + destruct (X2 p H) as [H1|[Hs [H1|[H1|H1]]]].
      * destruct (B1 _ p H1) as [H0|[[] _]]. tauto.
      * destruct (O1 p H1) as [H0|[]]. tauto.
      * tauto.
      * right. split; [assumption|]. right. right. lia.
  - intros a. specialize (C1 a). specialize (C2 a). rewrite co_app, co_nil in *. lia.
Qed.

(* for views given by their fields: the six fields of [Moves] become membership in appended lists,
   occurrence counts and inequalities between epochs, which is propositional reasoning and [lia] *)
Ltac moves_fin := constructor; unfold vdue, due_own, due_orph, vown, vco;
  cbn [v_seen v_prev v_cur v_gep v_oprev v_ocur t_prev t_cur concat app];
  intros; rewrite ?in_app_iff, ?in_push, ?co_app, ?co_push, ?co_nil in *; cbn [In] in *; try lia; intuition (try lia).

Lemma moves_exec_prev : forall x stm de nc x' f B B' G op oc, exec_prev x stm de nc = (x', f) ->
  B' = B + 1 -> B' <= G ->
  Moves stm nc {| v_seen := B; v_prev := t_prev x; v_cur := t_cur x; v_gep := G; v_oprev := op; v_ocur := oc |}
    {| v_seen := B'; v_prev := t_prev x'; v_cur := t_cur x'; v_gep := G; v_oprev := op; v_ocur := oc |} f.
Proof.
  intros x stm de nc x' f B B' G op oc H -> HG. unfold exec_prev in H.
  destruct stm; injection H as <- <-; moves_fin.
Qed.

Lemma moves_rotate : forall s x stm de x' f op oc fo G, exec_prev x stm de [] = (x', f) ->
  handle_orphans s stm = (op, oc, fo) -> G = q_gep s ->
  Moves stm [] {| v_seen := G; v_prev := t_prev x; v_cur := t_cur x; v_gep := G; v_oprev := q_oprev s; v_ocur := q_ocur s |}
    {| v_seen := G + 1; v_prev := t_prev x'; v_cur := t_cur x'; v_gep := G + 1; v_oprev := op; v_ocur := oc |} (fo ++ f).
Proof.
  intros s x stm de x' f op oc fo G H H' ->. unfold exec_prev in H. unfold handle_orphans in H'.
  destruct stm; injection H as <- <-; injection H' as <- <- <-; moves_fin.
Qed.

Lemma moves_refl : forall stm v, Moves stm [] v v [].
Proof. intros. moves_fin. Qed.

Lemma moves_idle : forall stm B B' G op oc,
  Moves stm [] {| v_seen := B; v_prev := []; v_cur := []; v_gep := G; v_oprev := op; v_ocur := oc |}
    {| v_seen := B'; v_prev := []; v_cur := []; v_gep := G; v_oprev := op; v_ocur := oc |} [].
Proof. intros. moves_fin. Qed.

Lemma moves_frees : forall stm new v v' f f', (forall a, co f' a = co f a) ->
  Moves stm new v v' f -> Moves stm new v v' f'.
Proof.
  intros stm new v v' f f' E [G F B O X C].
  assert (E' : forall p, In p f' <-> In p f) by (intros p; now rewrite !co_in, E).
  constructor; auto.
  - intros k p H. rewrite E'. auto.
  - intros p H. apply X, E', H.
  - intros a. rewrite E. apply C.
Qed.

Lemma adv_seen_seen : forall x stm e nc, t_ls x = e -> adv_seen x stm e nc = (x, [], false).
Proof. intros x stm e nc H. unfold adv_seen. now rewrite H, Z.eqb_refl. Qed.

Lemma adv_seen_new : forall x stm e nc, t_ls x <> e ->
  adv_seen x stm e nc = let '(x', f) := exec_prev x stm e nc in (x', f, true).
Proof.
  intros x stm e nc H. unfold adv_seen. destruct (Z.eqb_spec e (t_ls x)); [congruence|reflexivity].
Qed.

Lemma moves_observe : forall s x stm x' f b op oc, adv_seen x stm (q_ep s) [] = (x', f, b) ->
  Moves stm [] {| v_seen := seen_gep s x; v_prev := t_prev x; v_cur := t_cur x; v_gep := q_gep s; v_oprev := op; v_ocur := oc |}
    {| v_seen := q_gep s; v_prev := t_prev x'; v_cur := t_cur x'; v_gep := q_gep s; v_oprev := op; v_ocur := oc |} f.
Proof.
  intros s x stm x' f b op oc H. unfold seen_gep. destruct (Z.eqb_spec (q_ep s) (t_ls x)) as [Hs|Hs].
  - rewrite adv_seen_seen in H by auto. injection H as <- <- _. apply moves_refl.
  - rewrite adv_seen_new in H by auto. destruct (exec_prev x stm (q_ep s) []) as [x1 f1] eqn:E.
    injection H as <- <- _. eapply moves_exec_prev; [exact E|lia|lia].
Qed.

(** orphan_pending_requests: the lists of a thread that has seen the current epoch
    join the orphan lists of the same age *)
Lemma moves_orphan : forall stm pv cu G op oc,
  Moves stm [] {| v_seen := G; v_prev := pv; v_cur := cu; v_gep := G; v_oprev := op; v_ocur := oc |}
    {| v_seen := G; v_prev := []; v_cur := []; v_gep := G; v_oprev := push_nonempty pv op; v_ocur := push_nonempty cu oc |} [].
Proof. intros. moves_fin. Qed.

Lemma moves_append : forall stm B pv cu G op oc p,
  Moves stm [p] {| v_seen := B; v_prev := pv; v_cur := cu; v_gep := G; v_oprev := op; v_ocur := oc |}
    {| v_seen := B; v_prev := pv; v_cur := cu ++ [p]; v_gep := G; v_oprev := op; v_ocur := oc |} [].
Proof. intros. moves_fin. Qed.

Lemma moves_free_now : forall v p, Moves true [p] v v [p].
Proof. intros. moves_fin. Qed.
