(** Facts about the fine-grained QSBR model alone: lists of thread records and
    counting over them, what [fstep] accepts by kind of event, the ghost maps. *)
From Coq Require Import List ZArith Bool Lia Arith.
From Unodb Require Import Qsbr.QsbrModel Qsbr.QsbrBase Qsbr.QsbrFine.
Import ListNotations.
Local Open Scope Z_scope.

Fixpoint fcnt (f : fthr -> bool) (l : list fthr) : Z :=
  match l with [] => 0 | x :: l' => b2z (f x) + fcnt f l' end.

Lemma fcnt_nonneg : forall f l, 0 <= fcnt f l.
Proof. induction l as [|x l IH]; cbn [fcnt]; [lia|]. destruct (f x); cbn [b2z]; lia. Qed.

Lemma flength_set_nth : forall l i x, length (set_nth_fthr i x l) = length l.
Proof. induction l as [|y l IH]; intros [|i] x; cbn [set_nth_fthr length]; auto. Qed.

Lemma fnth_set_nth : forall l i j x, (i < length l)%nat ->
  nth j (set_nth_fthr i x l) fthr0 = if Nat.eqb j i then x else nth j l fthr0.
Proof.
  induction l as [|y l IH]; intros i j x Hi; cbn [length] in Hi; [lia|].
  destruct i as [|i]; destruct j as [|j]; cbn [set_nth_fthr nth Nat.eqb]; auto.
  apply IH. lia.
Qed.

Lemma fnth_set_nth_same : forall l i x, (i < length l)%nat -> nth i (set_nth_fthr i x l) fthr0 = x.
Proof. intros. rewrite fnth_set_nth by auto. now rewrite Nat.eqb_refl. Qed.

Lemma fnth_set_nth_other : forall l i j x, j <> i -> nth j (set_nth_fthr i x l) fthr0 = nth j l fthr0.
Proof.
  induction l as [|y l IH]; intros i j x Hne.
  - destruct i; reflexivity.
  - destruct i as [|i]; destruct j as [|j]; cbn [set_nth_fthr nth]; auto; try congruence.
Qed.

Lemma fcnt_set_nth : forall f l i x, (i < length l)%nat ->
  fcnt f (set_nth_fthr i x l) = fcnt f l - b2z (f (nth i l fthr0)) + b2z (f x).
Proof.
  induction l as [|y l IH]; intros i x Hi; cbn [length] in Hi; [lia|].
  destruct i as [|i]; cbn [set_nth_fthr fcnt nth]; [lia|].
  rewrite IH by lia. lia.
Qed.

Lemma fcnt_ext_idx : forall f g l,
  (forall u, (u < length l)%nat -> f (nth u l fthr0) = g (nth u l fthr0)) -> fcnt f l = fcnt g l.
Proof.
  induction l as [|y l IH]; intros H; [reflexivity|].
  cbn [fcnt]. pose proof (H O) as H0. cbn [nth length] in H0. rewrite H0 by lia.
  rewrite IH; [reflexivity|]. intros u Hu. apply (H (S u)). cbn [length]. lia.
Qed.

Lemma fcnt_zero_all : forall f l, fcnt f l = 0 ->
  forall u, (u < length l)%nat -> f (nth u l fthr0) = false.
Proof.
  induction l as [|y l IH]; intros H u Hu; cbn [length] in Hu; [lia|].
  cbn [fcnt] in H. pose proof (fcnt_nonneg f l).
  destruct u as [|u]; cbn [nth].
  - destruct (f y); cbn [b2z] in H; [lia|reflexivity].
  - apply IH; [|lia]. destruct (f y); cbn [b2z] in H; lia.
Qed.

Lemma fcnt_pos : forall f l u, f fthr0 = false -> f (nth u l fthr0) = true -> 1 <= fcnt f l.
Proof.
  intros f l u H0 Hu.
  destruct (Z.eq_dec (fcnt f l) 0) as [Hz|Hz].
  - destruct (Nat.ltb_spec u (length l)) as [Hlt|Hge].
    + rewrite (fcnt_zero_all f l Hz u Hlt) in Hu. discriminate.
    + rewrite nth_overflow in Hu by lia. congruence.
  - pose proof (fcnt_nonneg f l). lia.
Qed.

Lemma fcnt_one_unique : forall f l t, fcnt f l = 1 -> (t < length l)%nat ->
  f (nth t l fthr0) = true -> f fthr0 = false ->
  forall u, u <> t -> f (nth u l fthr0) = false.
Proof.
  intros f l t H1 Ht Hf H0 u Hne.
  destruct (Nat.ltb_spec u (length l)) as [Hu|Hu].
  - assert (Hz : fcnt f (set_nth_fthr t fthr0 l) = 0).
    { rewrite fcnt_set_nth by auto. rewrite Hf, H0. cbn [b2z]. lia. }
    pose proof (fcnt_zero_all _ _ Hz u) as H. rewrite flength_set_nth in H.
    specialize (H Hu). now rewrite fnth_set_nth_other in H by auto.
  - rewrite nth_overflow by lia. exact H0.
Qed.

Lemma get_fthr_overflow : forall s u, (length (f_thr s) <= u)%nat -> get_fthr s u = fthr0.
Proof. intros s u H. unfold get_fthr. now apply nth_overflow. Qed.

(** the step of a call in progress, chosen by the program counter as in [fstep] *)
Definition step_pc (s : fstate) (t : tid) (x : fthr) (e : fevent) : option fstate :=
  match ft_pc x with
  | PIdle | PRet => None
  | PRegLoad | PRegCas _ | PRegSpin _ => step_reg s t x e
  | PRetObs _ | PRetLoad _ => step_retire s t x e
  | PQLoad => step_q s t x e
  | PRmFsub _ _ | PChXPrev _ _ _ | PChXCur _ _ _ _ | PChMove _ _ _
  | PChAppend _ _ _ _ | PChLoad _ _ | PChCas _ _ _ => step_epoch s t x e
  | PULoad _ | PUCas _ => step_unreg s t x e
  | POLoad _ | POCas _ _ => step_orph s t x e
  end.

Lemma fstep_cases : forall s e s', fstep s e = Some s' ->
  let t := ev_tid e in
  let x := get_fthr s t in
  (t < length (f_thr s))%nat /\
  match e with
  | FFree _ p => step_free s t x p = Some s'
  | FAlloc _ p => ft_free x = [] /\ step_alloc s t x p = Some s'
  | FCall _ o arg => ft_free x = [] /\ ft_pc x = PIdle /\ step_call s t x o arg = Some s'
  | FRet _ o => ft_free x = [] /\ ft_pc x = PRet /\ step_ret s t x o = Some s'
  | _ => ft_free x = [] /\ step_pc s t x e = Some s'
  end.
Proof.
  intros s e s' H t x. unfold fstep in H. fold t in H.
  destruct (Nat.ltb_spec t (length (f_thr s))) as [Hlt|]; [|discriminate]. fold x in H.
  split; [exact Hlt|].
  destruct e; try exact H; (destruct (ft_free x); [split; [reflexivity|]|discriminate]); try exact H.
  all: destruct (ft_pc x); try discriminate H; auto.
Qed.

Lemma fop_eqb_eq : forall a b, fop_eqb a b = true -> a = b.
Proof. intros [] []; cbn; congruence. Qed.

Lemma sw_eqb_eq : forall a b, sw_eqb a b = true -> a = b.
Proof.
  intros [e1 t1 p1] [e2 t2 p2] H. unfold sw_eqb in H. cbn [w_ep w_T w_P] in H.
  apply andb_prop in H. destruct H as [H H3]. apply andb_prop in H. destruct H as [H1 H2].
  apply Z.eqb_eq in H1, H2, H3. congruence.
Qed.

Lemma incl_app_nil : forall (l : list ptr), incl (l ++ []) l.
Proof. intros l. rewrite app_nil_r. apply incl_refl. Qed.

Lemma passed_wait : forall w t p v, In v (wait_of (ghost_passed w t) p) -> In v (wait_of w p) /\ v <> t.
Proof. intros w t p v Hv. rewrite wait_of_passed in Hv. now apply in_remove_tid in Hv. Qed.

Lemma wait_of_drop1 : forall w p q, q <> p -> wait_of (ghost_drop w [p]) q = wait_of w q.
Proof.
  intros w p q Hne. apply wait_of_drop. intros [H|[]]. congruence.
Qed.

Lemma wait_of_drop_in : forall w f q v, In v (wait_of (ghost_drop w f) q) -> In v (wait_of w q).
Proof.
  induction w as [|[a ws] w IH]; intros f q v H; cbn [ghost_drop wait_of] in *; [exact H|].
  destruct (existsb (Z.eqb a) f) eqn:He.
  - destruct (Z.eqb_spec a q) as [->|Hne].
    + (* the entry of [q] itself is dropped; later entries are shadowed in the original *)
      exfalso. clear IH. revert H. induction w as [|[b ws'] w IHw]; cbn [ghost_drop wait_of]; auto.
      destruct (existsb (Z.eqb b) f) eqn:Hb; auto.
      cbn [wait_of]. destruct (Z.eqb_spec b q) as [->|Hbq]; auto.
      intros _. rewrite He in Hb. discriminate.
    + eapply IH; eauto.
  - cbn [wait_of] in H. destruct (Z.eqb a q); auto. eapply IH; eauto.
Qed.

Lemma in_active_others : forall l t i v, In v (active_others l t i) ->
  v <> t /\ exists j, v = (i + j)%nat /\ holds_refs (nth j l fthr0) = true.
Proof.
  induction l as [|x l IH]; intros t i v H; cbn [active_others] in H; [contradiction|].
  apply in_app_or in H. destruct H as [H|H].
  - destruct (holds_refs x) eqn:Hr; cbn [andb] in H; [|contradiction].
    destruct (Nat.eqb_spec i t); cbn [negb] in H; [contradiction|].
    destruct H as [<-|[]]. split; auto. exists O. cbn [nth]. split; [lia|auto].
  - apply IH in H. destruct H as [Hne [j [-> Hr]]]. split; auto.
    exists (S j). cbn [nth]. split; [lia|auto].
Qed.

Lemma append_from_eq : forall h l tc r, append_from h l tc = Some r -> r = l ++ tc.
Proof.
  induction l as [|[a v] l IH]; intros tc r H; cbn [append_from] in H; [discriminate|].
  destruct (a =? h); [now inversion H|].
  destruct (append_from h l tc) eqn:Ha; [|discriminate].
  inversion H. cbn [app]. f_equal. now apply IH.
Qed.

Lemma ol_reqs_app : forall a b, ol_reqs (a ++ b) = ol_reqs a ++ ol_reqs b.
Proof. intros. unfold ol_reqs. now rewrite map_app, concat_app. Qed.

Lemma ol_reqs_cons : forall a v l, ol_reqs ((a, v) :: l) = v ++ ol_reqs l.
Proof. reflexivity. Qed.
