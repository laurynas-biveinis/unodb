(** Frame of a step of the fine-grained QSBR model: what one thread's step
    leaves alone, and the assembly of the invariant from facts about the
    stepping thread only. *)
From Coq Require Import List ZArith Bool Lia Arith.
From Unodb Require Import Qsbr.QsbrModel Qsbr.QsbrBase Qsbr.QsbrInv Qsbr.QsbrFine Qsbr.QsbrFineBase
  Qsbr.QsbrFineInv.
Import ListNotations.
Local Open Scope Z_scope.

(** [keep]: every request but the one a retire step adds (its waiting set is
    new; those of the others only shrink) *)
Record StepSame (s s1 : fstate) (t : tid) (keep : ptr -> Prop) : Prop := {
  ss_ep : fE s1 = fE s;
  ss_oth : forall u, u <> t -> get_fthr s1 u = get_fthr s u;
  ss_W : forall p, keep p -> forall v, In v (FW s1 p) -> In v (FW s p);
  ss_t : (forall p, keep p -> ~ In t (FW s1 p)) \/ hr s t = false \/
         (hr s1 t = true /\ (cp s t = true -> cp s1 t = true));
  ss_late : late_pc (ft_pc (get_fthr s t)) = true -> late_pc (ft_pc (get_fthr s1 t)) = true
}.

Lemma same_cls : forall s s1 t keep k p, StepSame s s1 t keep -> keep p -> fcls s k p -> fcls s1 k p.
Proof.
  intros s s1 t keep k p SS Hk H. destruct SS as [He Ho HW Ht _].
  pose proof (fcls_0 _ _ _ H) as H0. cbn [fcls] in H0.
  assert (Hv : forall v, In v (FW s1 p) -> In v (FW s p) /\ (hr s v = true -> hr s1 v = true) /\
                 (cp s v = true -> cp s1 v = true)).
  { intros v Hv. pose proof (HW p Hk v Hv) as Hv0. split; auto.
    destruct (Nat.eq_dec v t) as [->|Hne].
    - destruct Ht as [Ht|[Ht|[Ht1 Ht2]]].
      + exfalso. eapply Ht; eauto.
      + rewrite (H0 t Hv0) in Ht. discriminate.
      + auto.
    - unfold hr, cp. rewrite He, Ho by auto. auto. }
  destruct k as [|[|k]]; cbn [fcls] in *.
  - intros v Hin. destruct (Hv v Hin) as [Hi [Hh _]]. auto.
  - intros v Hin. destruct (Hv v Hin) as [Hi [Hh Hc]]. destruct (H v Hi). auto.
  - apply list_empty_no_in. intros v Hin. destruct (Hv v Hin) as [Hi _]. rewrite H in Hi. contradiction.
Qed.

Lemma same_late : forall s s1 t keep, StepSame s s1 t keep -> late s -> late s1.
Proof.
  intros s s1 t keep SS [v Hv]. exists v. destruct (Nat.eq_dec v t) as [->|Hne].
  - now apply (ss_late _ _ _ _ SS).
  - now rewrite (ss_oth _ _ _ _ SS) by auto.
Qed.

Lemma same_notin : forall s s1 t keep u p, StepSame s s1 t keep -> keep p ->
  ~ In u (FW s p) -> ~ In u (FW s1 p).
Proof. intros s s1 t keep u p SS Hk Hn Hin. apply Hn. eapply (ss_W _ _ _ _ SS); eauto. Qed.

Lemma same_thr_ok : forall s s1 t keep u x, StepSame s s1 t keep ->
  (forall p, In p (thr_reqs x) -> keep p) -> thr_ok s u x -> thr_ok s1 u x.
Proof.
  intros s s1 t keep u x SS Hk [Hc Hp Hf Hpc Hs].
  assert (C : forall k p, In p (thr_reqs x) -> fcls s k p -> fcls s1 k p).
  { intros k p Hin. apply (same_cls _ _ _ _ _ _ SS). auto. }
  assert (T : forall k p, In p (thr_reqs x) -> ~ In u (FW s p) /\ fcls s k p ->
                ~ In u (FW s1 p) /\ fcls s1 k p).
  { intros k p Hin [Hn Hcl]. split; [apply (same_notin _ _ _ _ _ _ SS); auto|now apply C]. }
  pose proof (in_reqs_pc x) as Hin_pc.
  constructor; rewrite ?(ss_ep _ _ _ _ SS).
  - intros p Hin. apply T; [now apply in_reqs_cur|now apply Hc].
  - intros p Hin. apply T; [now apply in_reqs_prev|now apply Hp].
  - intros p Hin. apply C; [now apply in_reqs_free|now apply Hf].
  - destruct (ft_pc x); cbn [pc_ok pc_reqs] in *; auto;
      try (intros q Hq; apply C; auto).
    apply T; auto. apply Hin_pc. now left.
  - intros Hst p Hin. apply C; auto.
    apply in_app_or in Hin. destruct Hin; auto using in_reqs_cur, in_reqs_prev.
Qed.

Lemma get_set_nth : forall s s1 t x', (t < length (f_thr s))%nat ->
  f_thr s1 = set_nth_fthr t x' (f_thr s) ->
  get_fthr s1 t = x' /\ forall u, u <> t -> get_fthr s1 u = get_fthr s u.
Proof.
  intros s s1 t x' Hlt Hthr. unfold get_fthr. rewrite Hthr. split.
  - now apply fnth_set_nth_same.
  - intros u Hne. now apply fnth_set_nth_other.
Qed.

Lemma mk_same : forall s s1 t x' (keep : ptr -> Prop),
  (t < length (f_thr s))%nat ->
  f_thr s1 = set_nth_fthr t x' (f_thr s) ->
  w_ep (f_w s1) = w_ep (f_w s) ->
  (forall p, keep p -> forall v, In v (FW s1 p) -> In v (FW s p)) ->
  ((forall p, keep p -> ~ In t (FW s1 p)) \/ holds_refs (get_fthr s t) = false \/
   (holds_refs x' = true /\ (cntP (fE s) (get_fthr s t) = true -> cntP (fE s) x' = true))) ->
  (late_pc (ft_pc (get_fthr s t)) = true -> late_pc (ft_pc x') = true) ->
  StepSame s s1 t keep.
Proof.
  intros s s1 t x' keep Hlt Hthr He HW Ht Hl.
  destruct (get_set_nth s s1 t x' Hlt Hthr) as [Hg Ho].
  constructor; auto.
  - unfold hr, cp. rewrite Hg. unfold fE. rewrite He. exact Ht.
  - now rewrite Hg.
Qed.

(** what the counting conjuncts of [Inv] ([v_T] .. [v_sole]) need of a step
    from record [x] and word [w] to [x'] and [w'] *)
Record LocStep (e : Z) (w w' : sw) (x x' : fthr) : Prop := {
  l_T : w_T w' = w_T w - b2z (cntT x) + b2z (cntT x');
  l_P : w_P w' = w_P w - b2z (cntP e x) + b2z (cntP e x');
  l_loc : thr_loc e x';
  (* a thread becomes the epoch changer only by taking P from positive to 0 *)
  l_chg : chg_pc (ft_pc x') = true -> chg_pc (ft_pc x) = true \/ (0 < w_P w /\ w_P w' = 0);
  (* while another thread is the epoch changer (P = 0, T >= 1) this one stays uncounted in P ... *)
  l_P0 : w_P w = 0 -> 1 <= w_T w -> cntP e x = false -> cntP e x' = false;
  (* single-thread mode is seen only by the one counted thread *)
  l_sole : sole_pc (ft_pc x') = true -> sole_pc (ft_pc x) = true \/ (w_T w = 1 /\ cntT x = true);
  (* ... and, if quiet, stays quiet (for [v_sole]) *)
  l_quiet : w_P w = 0 -> 1 <= w_T w -> cntP e x = false -> quiet x = true -> quiet x' = true;
  l_late : late_pc (ft_pc x) = true -> late_pc (ft_pc x') = true
}.

Lemma inv_same : forall s s1 t x' keep,
  Inv s -> (t < length (f_thr s))%nat ->
  f_thr s1 = set_nth_fthr t x' (f_thr s) ->
  StepSame s s1 t keep ->
  (forall p, In p (fpending s) -> keep p) ->
  LocStep (fE s) (f_w s) (f_w s1) (get_fthr s t) x' ->
  thr_ok s1 t x' ->
  (forall p, In p (ol_reqs (f_ocur s1)) -> keep p /\ fcls s 0 p) ->
  (forall p, In p (ol_reqs (f_oprev s1)) ->
     keep p /\ fcls s 0 p /\ (fcls s 1 p \/ late s \/ late_pc (ft_pc x') = true)) ->
  Inv s1.
Proof.
  intros s s1 t x' keep I Hlt Hthr SS Hkeep [HT HP Hloc Hchg HP0 Hsole Hquiet _] Hok Hoc Hop.
  (* field by field, in the order of [Inv].  Where a field speaks of every thread, the stepping
     thread [t] is settled by the [LocStep] premise, any other by [ss_oth] and the field of [s];
     [Hchg_s]: while there is an epoch changer, [t] is not counted in P - the premise of [l_P0], [l_quiet] *)
  pose proof (ss_ep _ _ _ _ SS) as He. pose proof (ss_oth _ _ _ _ SS) as Hoth.
  destruct (get_set_nth s s1 t x' Hlt Hthr) as [Hg _].
  assert (Hchg_s : forall u, chg_pc (ft_pc (get_fthr s u)) = true ->
            w_P (f_w s) = 0 /\ 1 <= w_T (f_w s) /\ cntP (fE s) (get_fthr s t) = false).
  { intros u Hu. destruct (v_chg s I u Hu) as [HP' _]. split; auto. split; [eapply chg_T1; eauto|].
    apply (P0_cntP s t I HP'). }
  constructor.
  - rewrite He. apply (v_ep s I).
  - rewrite HT, Hthr, fcnt_set_nth by auto. rewrite (v_T s I). unfold get_fthr. lia.
  - rewrite He, HP, Hthr, fcnt_set_nth by auto. rewrite (v_P s I). unfold get_fthr. lia.
  - (* v_chg *) intros u Hu. destruct (Nat.eq_dec u t) as [->|Hne].
    + rewrite Hg in Hu. destruct (Hchg Hu) as [Hc|[Hpos HP1]].
      * destruct (Hchg_s t Hc) as [HP' [HT' HcP]]. destruct (v_chg s I t Hc) as [_ Huniq]. split.
        -- rewrite HP, HP', HcP, (chg_cntP _ _ Hu). reflexivity.
        -- intros v Hv. destruct (Nat.eq_dec v t) as [|Hvt]; auto. rewrite Hoth in Hv by auto. auto.
      * split; auto. intros v Hv. destruct (Nat.eq_dec v t) as [|Hvt]; auto.
        rewrite Hoth in Hv by auto. destruct (v_chg s I v Hv). lia.
    + rewrite Hoth in Hu by auto. destruct (Hchg_s u Hu) as [HP' [HT' HcP]].
      destruct (v_chg s I u Hu) as [_ Huniq]. split.
      * rewrite HP, HP', HcP, (HP0 HP' HT' HcP). reflexivity.
      * intros v Hv. destruct (Nat.eq_dec v t) as [->|Hvt].
        -- rewrite Hg in Hv. destruct (Hchg Hv) as [Hc|[Hpos _]]; [auto|lia].
        -- rewrite Hoth in Hv by auto. auto.
  - intros u. rewrite He. destruct (Nat.eq_dec u t) as [->|Hne]; [now rewrite Hg|].
    rewrite Hoth by auto. apply (v_loc s I).
  - (* v_sole *) intros u Hu v Hvu. destruct (Nat.eq_dec u t) as [->|Hne].
    + rewrite Hg in Hu. rewrite Hoth by auto. destruct (Hsole Hu) as [Hs|[HT1 HcT]].
      * apply (v_sole s I t Hs v Hvu).
      * apply notT_quiet; [apply (v_loc s I v)|].
        unfold get_fthr in *. apply fcnt_one_unique with (t := t); auto.
        rewrite <- (v_T s I). exact HT1.
    + rewrite Hoth in Hu by auto.
      destruct (Hchg_s u (sole_chg _ Hu)) as [HP' [HT' HcP]].
      destruct (Nat.eq_dec v t) as [->|Hvt].
      * rewrite Hg. apply Hquiet; auto. apply (v_sole s I u Hu t). auto.
      * rewrite Hoth by auto. apply (v_sole s I u Hu v Hvu).
  - (* v_thr *) intros u. destruct (Nat.eq_dec u t) as [->|Hne]; [now rewrite Hg|].
    rewrite Hoth by auto. eapply same_thr_ok; eauto; [|apply (v_thr s I)].
    intros p Hp. apply Hkeep. eapply in_fpending_thr; eauto.
  - (* v_ocur *) intros p Hp. destruct (Hoc p Hp). eapply same_cls; eauto.
  - (* v_oprev *) intros p Hp. destruct (Hop p Hp) as (K & H0 & H1). split; [eapply same_cls; eauto|].
    destruct H1 as [H1|[H1|H1]]; [left; eapply same_cls; eauto|right; eapply same_late; eauto|].
    right. exists t. now rewrite Hg.
Qed.

(** in the shape of [inv_step]'s premise about the previous-interval orphans; [c] stands for its last
    disjunct (the stepping thread becomes [late]), not needed for requests that were on the list already *)
Lemma oprev_old : forall s (c : Prop), Inv s -> forall p, In p (ol_reqs (f_oprev s)) ->
  fcls s 0 p /\ (fcls s 1 p \/ late s \/ c).
Proof. intros s c I p Hp. destruct (v_oprev s I p Hp) as [H0 [H1|H1]]; auto. Qed.

(** The result is written out as a record so that it unifies with whatever
    [set_fthr (..) t x'] the step function returns.  Every premise is about
    the old state: the requests of [x'], [op'], [oc'] are requests of [s],
    whose classes carry over ([same_cls]). *)
Lemma inv_step : forall s t x x' w' op' oc' W' fr g b,
  Inv s -> (t < length (f_thr s))%nat -> get_fthr s t = x ->
  w_ep w' = fE s ->
  (forall p v, In v (wait_of W' p) -> In v (FW s p)) ->
  ((forall p, ~ In t (wait_of W' p)) \/ holds_refs x = false \/
   (holds_refs x' = true /\ (cntP (fE s) x = true -> cntP (fE s) x' = true))) ->
  LocStep (fE s) (f_w s) w' x x' ->
  thr_ok s t x' ->
  (forall p, In p (ol_reqs oc') -> fcls s 0 p) ->
  (forall p, In p (ol_reqs op') ->
     fcls s 0 p /\ (fcls s 1 p \/ late s \/ late_pc (ft_pc x') = true)) ->
  Inv {| f_w := w'; f_oprev := op'; f_ocur := oc'; f_thr := set_nth_fthr t x' (f_thr s);
         f_freed := fr; f_gep := g; f_wait := W'; f_bad := b |}.
Proof.
  intros s t x x' w' op' oc' W' fr g b I Hlt <- He HW Ht L Hok Hoc Hop.
  match goal with |- Inv ?S => set (s1 := S) end.
  assert (SS : StepSame s s1 t (fun _ => True)).
  { apply mk_same with (x' := x');
      [exact Hlt|reflexivity|exact He|intros p _; apply HW| |apply (l_late _ _ _ _ _ L)].
    destruct Ht as [Ht|Ht]; [left; intros p _; apply Ht|right; exact Ht]. }
  apply inv_same with (s := s) (t := t) (x' := x') (keep := fun _ => True); auto.
  apply (same_thr_ok _ _ _ _ _ _ SS); auto.
Qed.

Lemma inv_step_thr : forall s t x x' w' fr g b,
  Inv s -> (t < length (f_thr s))%nat -> get_fthr s t = x ->
  w_ep w' = fE s ->
  (holds_refs x = false \/
   (holds_refs x' = true /\ (cntP (fE s) x = true -> cntP (fE s) x' = true))) ->
  LocStep (fE s) (f_w s) w' x x' ->
  thr_ok s t x' ->
  Inv {| f_w := w'; f_oprev := f_oprev s; f_ocur := f_ocur s; f_thr := set_nth_fthr t x' (f_thr s);
         f_freed := fr; f_gep := g; f_wait := f_wait s; f_bad := b |}.
Proof.
  intros s t x x' w' fr g b I Hlt Hx He Ht L Hok.
  apply inv_step with (x := x); auto; [apply (v_ocur s I)|now apply oprev_old].
Qed.

Lemma inv_ghost_only : forall s fr g b, Inv s ->
  Inv {| f_w := f_w s; f_oprev := f_oprev s; f_ocur := f_ocur s; f_thr := f_thr s;
         f_freed := fr; f_gep := g; f_wait := f_wait s; f_bad := b |}.
Proof.
  intros s fr g b [A B C D E F G H J].
  constructor; [exact A|exact B|exact C|exact D|exact E|exact F| |exact H|exact J].
  intros u. destruct (G u) as [Kc Kp Kf Kpc Ks]. constructor; [exact Kc|exact Kp|exact Kf|exact Kpc|exact Ks].
Qed.

Lemma inv_thr : forall s t x, Inv s -> get_fthr s t = x -> thr_ok s t x /\ thr_loc (fE s) x.
Proof. intros s t x I <-. split; [apply (v_thr s I)|apply (v_loc s I)]. Qed.

Lemma thr_ok_sub : forall s u x x', thr_ok s u x ->
  incl (t_cur (ft x')) (t_cur (ft x)) -> incl (t_prev (ft x')) (t_prev (ft x)) ->
  (lsk (fE s) x' <= lsk (fE s) x)%nat ->
  incl (ft_free x') (ft_free x) ->
  pc_ok s u (ft_pc x') ->
  (stale_stm (ft_pc x') = true -> stale_stm (ft_pc x) = true \/
     forall p, In p (t_cur (ft x) ++ t_prev (ft x)) -> fcls s 2 p) ->
  thr_ok s u x'.
Proof.
  intros s u x x' [Hc Hp Hf Hpc Hs] H1 H2 H3 H4 H5 H6.
  constructor; auto.
  - intros p Hin. destruct (Hc p (H1 p Hin)). split; auto. eapply fcls_le; eauto.
  - intros p Hin. destruct (Hp p (H2 p Hin)). split; auto. eapply fcls_le; [|eauto]. lia.
  - intros Hst p Hin. assert (Hall : forall q, In q (t_cur (ft x) ++ t_prev (ft x)) -> fcls s 2 q)
      by (destruct (H6 Hst); auto).
    apply Hall. apply in_app_or in Hin. apply in_or_app. destruct Hin; auto.
Qed.

Lemma inv_repc : forall s t x x' w' fr g b,
  Inv s -> (t < length (f_thr s))%nat -> get_fthr s t = x ->
  w_ep w' = fE s ->
  t_cur (ft x') = t_cur (ft x) -> t_prev (ft x') = t_prev (ft x) ->
  (lsk (fE s) x' <= lsk (fE s) x)%nat -> incl (ft_free x') (ft_free x) ->
  (holds_refs x = false \/
   (holds_refs x' = true /\ (cntP (fE s) x = true -> cntP (fE s) x' = true))) ->
  LocStep (fE s) (f_w s) w' x x' ->
  pc_ok s t (ft_pc x') ->
  (stale_stm (ft_pc x') = true -> stale_stm (ft_pc x) = true \/
     forall p, In p (t_cur (ft x) ++ t_prev (ft x)) -> fcls s 2 p) ->
  Inv {| f_w := w'; f_oprev := f_oprev s; f_ocur := f_ocur s; f_thr := set_nth_fthr t x' (f_thr s);
         f_freed := fr; f_gep := g; f_wait := f_wait s; f_bad := b |}.
Proof.
  intros s t x x' w' fr g b I Hlt Hx He Hc Hp Hl Hf Ht L Hpc Hs.
  apply inv_step_thr with (x := x); auto.
  apply thr_ok_sub with (x := x); auto; [now apply inv_thr|rewrite Hc|rewrite Hp]; apply incl_refl.
Qed.

(** [l] is held by [u]: its requests do not wait for [u]; they have class [k] *)
Definition reqs_ok (s : fstate) (u : tid) (k : nat) (l : list ptr) : Prop :=
  forall p, In p l -> ~ In u (FW s p) /\ fcls s k p.

Lemma reqs_ok_le : forall s u k k' l, (k <= k')%nat -> reqs_ok s u k' l -> reqs_ok s u k l.
Proof. intros s u k k' l Hle H p Hin. destruct (H p Hin). split; auto. eapply fcls_le; eauto. Qed.

Lemma reqs_ok_app : forall s u k l1 l2, reqs_ok s u k l1 -> reqs_ok s u k l2 -> reqs_ok s u k (l1 ++ l2).
Proof. intros s u k l1 l2 H1 H2 p Hin. apply in_app_or in Hin. destruct Hin; auto. Qed.

Lemma reqs_ok_nil : forall s u k, reqs_ok s u k [].
Proof. intros s u k p []. Qed.

Lemma thr_ok_cur : forall s u x, thr_ok s u x -> reqs_ok s u 0 (t_cur (ft x)).
Proof. intros s u x H. apply (reqs_ok_le s u 0 (lsk (fE s) x)); [lia|exact (k_cur _ _ _ H)]. Qed.

Lemma thr_ok_prev : forall s u x, thr_ok s u x -> reqs_ok s u 1 (t_prev (ft x)).
Proof. intros s u x H. apply (reqs_ok_le s u 1 (S (lsk (fE s) x))); [lia|exact (k_prev _ _ _ H)]. Qed.

Lemma thr_ok_now : forall s u x, t_ls (ft x) = fE s ->
  reqs_ok s u 0 (t_cur (ft x)) -> reqs_ok s u 1 (t_prev (ft x)) ->
  (forall p, In p (ft_free x) -> fcls s 2 p) -> pc_ok s u (ft_pc x) ->
  (stale_stm (ft_pc x) = true -> forall p, In p (t_cur (ft x) ++ t_prev (ft x)) -> fcls s 2 p) ->
  thr_ok s u x.
Proof.
  intros s u x Hls Hc Hp Hf Hpc Hs. constructor; auto; unfold lsk; now rewrite Hls, Z.eqb_refl.
Qed.

Lemma exec_prev_ok : forall s u kc kp th stm de nc th' f,
  reqs_ok s u kc (t_cur th) -> reqs_ok s u kp (t_prev th) ->
  (stm = true -> forall p, In p (t_cur th) -> fcls s kp p) ->
  exec_prev th stm de nc = (th', f) ->
  exists pv, th' = {| t_reg := t_reg th; t_lsq := t_lsq th; t_ls := de; t_qs := t_qs th;
                      t_prev := pv; t_cur := nc |} /\
    reqs_ok s u kc pv /\ (forall p, In p f -> fcls s kp p).
Proof.
  intros s u kc kp th stm de nc th' f Hc Hp Hs H. unfold exec_prev in H.
  destruct stm; inversion H; subst; clear H; eexists; (split; [reflexivity|split]).
  - apply reqs_ok_nil.
  - intros p Hin. apply in_app_or in Hin. destruct Hin as [Hin|Hin]; [auto|apply (Hp p Hin)].
  - exact Hc.
  - intros p Hin. apply (Hp p Hin).
Qed.

(** advance_last_seen_epoch called with the current epoch *)
Lemma adv_seen_ok : forall s u th stm nc th' f b,
  let k := if fE s =? t_ls th then 0%nat else 1%nat in
  reqs_ok s u k (t_cur th) -> reqs_ok s u (S k) (t_prev th) ->
  (stm = true -> forall p, In p (t_cur th ++ t_prev th) -> fcls s 2 p) ->
  reqs_ok s u 0 nc ->
  adv_seen th stm (fE s) nc = (th', f, b) ->
  exists pv cr, th' = {| t_reg := t_reg th; t_lsq := t_lsq th; t_ls := fE s;
                         t_qs := t_qs th; t_prev := pv; t_cur := cr |} /\
    reqs_ok s u 0 cr /\ reqs_ok s u 1 pv /\ (forall p, In p f -> fcls s 2 p) /\
    (stm = true -> forall p, In p (cr ++ pv) -> fcls s 2 p \/ In p nc).
Proof.
  intros s u th stm nc th' f b k Hc Hp Hs Hn H. unfold adv_seen in H. subst k.
  destruct (Z.eqb_spec (fE s) (t_ls th)) as [He|He].
  - injection H as <- <- <-. exists (t_prev th), (t_cur th).
    split; [rewrite He; now destruct th|].
    split; [exact Hc|split; [exact Hp|split; [intros p []|]]].
    intros Hst p Hin. left. now apply Hs.
  - destruct (exec_prev th stm (fE s) nc) as [x1 f1] eqn:Hx. injection H as <- <- <-.
    destruct (exec_prev_ok s u 1 2 th stm (fE s) nc x1 f1 Hc Hp) as (pv & -> & Hpv & Hf); auto.
    { intros Hst p Hin. apply Hs; auto. apply in_or_app. now left. }
    exists pv, nc. split; [reflexivity|split; [exact Hn|split; [exact Hpv|split; [exact Hf|]]]].
    intros Hst p Hin. unfold exec_prev in Hx. rewrite Hst in Hx. inversion Hx; subst.
    rewrite app_nil_r in Hin. now right.
Qed.

Lemma quiet_nohr : forall y, quiet y = true -> holds_refs y = false.
Proof. intros y H. unfold quiet, holds_refs in *. destruct (t_reg (ft y)); [discriminate|reflexivity]. Qed.

Lemma cls0_empty : forall s q, fcls s 0 q -> (forall v, In v (FW s q) -> hr s v = false) -> fcls s 2 q.
Proof.
  intros s q H0 Hn. cbn [fcls] in *. apply list_empty_no_in. intros v Hv.
  pose proof (H0 v Hv) as Hh. rewrite (Hn v Hv) in Hh. discriminate.
Qed.

Lemma cls1_P0 : forall s q, Inv s -> w_P (f_w s) = 0 -> fcls s 1 q -> fcls s 2 q.
Proof.
  intros s q I HP H. cbn [fcls] in *. apply list_empty_no_in. intros v Hv.
  destruct (H v Hv) as [_ Hc]. rewrite (P0_cntP s v I HP) in Hc. discriminate.
Qed.

Lemma sole_hr : forall s t v, Inv s -> w_T (f_w s) < 2 -> cntT (get_fthr s t) = true ->
  v <> t -> hr s v = false.
Proof.
  intros s t v I HT Hc Hne.
  assert (HT1 : fcnt cntT (f_thr s) = 1).
  { pose proof (fcnt_pos cntT (f_thr s) t cntT_fthr0 Hc) as H1. rewrite <- (v_T s I) in *. lia. }
  assert (Hlt : (t < length (f_thr s))%nat).
  { destruct (Nat.ltb_spec t (length (f_thr s))); auto.
    rewrite get_fthr_overflow in Hc by lia. discriminate. }
  pose proof (fcnt_one_unique cntT (f_thr s) t HT1 Hlt Hc cntT_fthr0 v Hne) as Hv.
  apply quiet_nohr, notT_quiet; [apply (v_loc s I v)|exact Hv].
Qed.

Lemma sole_reqs : forall s t k l, Inv s -> w_T (f_w s) < 2 -> cntT (get_fthr s t) = true ->
  reqs_ok s t k l -> forall p, In p l -> fcls s 2 p.
Proof.
  intros s t k l I HT Hc Hl p Hin. destruct (Hl p Hin) as [Hn Hcl].
  apply cls0_empty; [eapply fcls_0; eauto|].
  intros v Hv. apply (sole_hr s t v I HT Hc). intros ->. contradiction.
Qed.

Lemma sole_lists : forall s t k1 k2 l1 l2, Inv s -> sw_stm (f_w s) = true ->
  cntT (get_fthr s t) = true -> reqs_ok s t k1 l1 -> reqs_ok s t k2 l2 ->
  forall p, In p (l1 ++ l2) -> fcls s 2 p.
Proof.
  intros s t k1 k2 l1 l2 I Hs Hc H1 H2 p Hin. apply Z.ltb_lt in Hs.
  apply in_app_or in Hin. destruct Hin as [Hin|Hin].
  - exact (sole_reqs s t k1 l1 I Hs Hc H1 p Hin).
  - exact (sole_reqs s t k2 l2 I Hs Hc H2 p Hin).
Qed.

Lemma sole_thr : forall s t x, Inv s -> get_fthr s t = x -> sw_stm (f_w s) = true -> cntT x = true ->
  forall p, In p (t_cur (ft x) ++ t_prev (ft x)) -> fcls s 2 p.
Proof.
  intros s t x I <- Hs Hc. pose proof (v_thr s I t) as Hok.
  eapply sole_lists; eauto; [exact (k_cur _ _ _ Hok)|exact (k_prev _ _ _ Hok)].
Qed.

Lemma sole_chg_empty : forall s t q, Inv s -> sole_pc (ft_pc (get_fthr s t)) = true ->
  fcls s 0 q -> fcls s 2 q.
Proof.
  intros s t q I Hs H. apply cls0_empty; auto. intros v _.
  destruct (Nat.eq_dec v t) as [->|Hne].
  - apply chg_hr_false; [apply (v_loc s I t)|now apply sole_chg].
  - apply quiet_nohr, (v_sole s I t Hs v Hne).
Qed.

Lemma not_late : forall s t, Inv s -> chg_pc (ft_pc (get_fthr s t)) = true ->
  late_pc (ft_pc (get_fthr s t)) = false -> ~ late s.
Proof.
  intros s t I Hc Hl [v Hv]. destruct (v_chg s I t Hc) as [_ Hu].
  rewrite (Hu v (late_chg _ Hv)) in Hv. congruence.
Qed.

Record StepAdv (s s1 : fstate) (t : tid) : Prop := {
  sa_ep : fE s1 = ep_adv (fE s);
  sa_oth : forall u, u <> t -> get_fthr s1 u = get_fthr s u;
  sa_P : w_P (f_w s) = 0;
  sa_hr : hr s t = false;
  sa_W : forall p v, In v (FW s1 p) -> In v (FW s p)
}.

(** every class moves up by one: the threads counted in the new epoch are
    those that may hold references *)
Lemma adv_cls : forall s s1 t k p, Inv s -> StepAdv s s1 t -> fcls s k p -> fcls s1 (S k) p.
Proof.
  intros s s1 t k p I SA H. destruct SA as [He Ho HP Hh HW].
  destruct k as [|[|k]]; cbn [fcls] in *.
  - intros v Hv. pose proof (H v (HW p v Hv)) as Hhv.
    assert (Hne : v <> t) by (intros ->; congruence).
    unfold hr, cp in *. rewrite He, Ho by auto. split; auto.
    apply hr_next; auto; [apply (v_ep s I)|apply (v_loc s I v)|apply (P0_cntP s v I HP)].
  - apply list_empty_no_in. intros v Hv. destruct (H v (HW p v Hv)) as [_ Hc].
    rewrite (P0_cntP s v I HP) in Hc. discriminate.
  - apply list_empty_no_in. intros v Hv. apply HW in Hv. rewrite H in Hv. contradiction.
Qed.

Lemma adv_cls_le : forall s s1 t k K p, Inv s -> StepAdv s s1 t -> fcls s k p -> (K <= S k)%nat ->
  fcls s1 K p.
Proof. intros. apply (fcls_le s1 K (S k)); auto. eapply adv_cls; eauto. Qed.

Lemma adv_reqs_ok : forall s s1 t u k K l, Inv s -> StepAdv s s1 t -> reqs_ok s u k l ->
  (K <= S k)%nat -> reqs_ok s1 u K l.
Proof.
  intros s s1 t u k K l I SA H Hle p Hin. destruct (H p Hin) as [Hn Hcl]. split.
  - intros Hu. apply Hn. eapply (sa_W _ _ _ SA); eauto.
  - eapply adv_cls_le; eauto.
Qed.

Lemma adv_thr_ok : forall s s1 t u x, Inv s -> StepAdv s s1 t -> thr_ok s u x -> thr_ok s1 u x.
Proof.
  intros s s1 t u x I SA [Hc Hp Hf Hpc Hs]. pose proof (lsk_le1 (fE s1) x).
  constructor.
  - eapply adv_reqs_ok; eauto. lia.
  - eapply adv_reqs_ok; eauto. lia.
  - intros p Hin. eapply adv_cls_le; eauto.
  - destruct (ft_pc x); cbn [pc_ok] in *; auto; try (intros q Hq; eapply adv_cls_le; eauto).
    apply (adv_reqs_ok s s1 t u 0 0 [p] I SA); [|lia|now left]. now intros q [<-|[]].
  - intros Hst p Hin. eapply adv_cls_le; eauto.
Qed.

(** The successful epoch CAS by the changer [t].  The premises about the
    requests of the new record are about the old state, one class lower. *)
Lemma inv_adv : forall s t x x' fr g b,
  Inv s -> (t < length (f_thr s))%nat -> get_fthr s t = x ->
  chg_pc (ft_pc x) = true ->
  cntT x' = true -> cntP (ep_adv (fE s)) x' = true -> pc_call (ft_pc x') = None ->
  thr_loc (ep_adv (fE s)) x' -> pc_reqs (ft_pc x') = [] ->
  reqs_ok s t 0 (t_cur (ft x')) -> reqs_ok s t (lsk (ep_adv (fE s)) x') (t_prev (ft x')) ->
  (forall p, In p (ft_free x') -> fcls s 1 p) ->
  Inv {| f_w := sw_next_epoch (f_w s); f_oprev := f_oprev s; f_ocur := f_ocur s;
         f_thr := set_nth_fthr t x' (f_thr s); f_freed := fr; f_gep := g; f_wait := f_wait s;
         f_bad := b |}.
Proof.
  intros s t x x' fr g b I Hlt <- Hchg HcT HcP Hnc Hloc Hnr Hcur Hprev Hfree.
  (* before the CAS, P = 0 and [t] is the only changer ([v_chg]); after it nobody is ([Hnochg1]), so
     [v_chg] and [v_sole] hold vacuously.  The new P is the new T: with P = 0 nobody was counted in the
     old epoch, and such threads are the counted ones of the new epoch ([next_cntP]).  For the same
     reason no member of a waiting set was counted, so every class goes up by one ([adv_cls]). *)
  match goal with |- Inv ?S => set (s1 := S) end.
  destruct (get_set_nth s s1 t x' Hlt eq_refl) as [Hg Hoth].
  destruct (v_chg s I t Hchg) as [HP0 Huniq]. pose proof (v_ep s I) as Hep.
  assert (He : fE s1 = ep_adv (fE s)) by reflexivity.
  assert (SA : StepAdv s s1 t).
  { constructor; auto. apply chg_hr_false; [apply (v_loc s I t)|exact Hchg]. }
  assert (Hnochg : forall u, u <> t -> chg_pc (ft_pc (get_fthr s u)) = false).
  { intros u Hne. destruct (chg_pc (ft_pc (get_fthr s u))) eqn:Hc; auto. elim Hne. auto. }
  assert (Hnochg1 : forall u, chg_pc (ft_pc (get_fthr s1 u)) = false).
  { intros u. destruct (Nat.eq_dec u t) as [->|Hne].
    - rewrite Hg. destruct (ft_pc x'); cbn [pc_call chg_pc] in *; congruence.
    - rewrite Hoth by auto. auto. }
  assert (HT1 : w_T (f_w s1) = fcnt cntT (f_thr s1)).
  { cbn [s1 f_w f_thr sw_next_epoch w_T]. rewrite fcnt_set_nth by auto. rewrite (v_T s I).
    change (nth t (f_thr s) fthr0) with (get_fthr s t). rewrite (chg_cntT _ Hchg), HcT. lia. }
  constructor.
  - rewrite He. apply ep_adv_range.
  - exact HT1.
  - (* v_P *) change (w_P (f_w s1)) with (w_T (f_w s1)). rewrite HT1. apply fcnt_ext_idx. intros u Hu.
    change (nth u (f_thr s1) fthr0) with (get_fthr s1 u). rewrite He.
    destruct (Nat.eq_dec u t) as [->|Hne]; [rewrite Hg; congruence|].
    rewrite Hoth by auto. symmetry. apply next_cntP; auto; [apply (v_loc s I u)|apply (P0_cntP s u I HP0)].
  - intros u Hu. rewrite Hnochg1 in Hu. discriminate.
  - (* v_loc: no other thread is inside a call that carries the old epoch *)
    intros u. rewrite He. destruct (Nat.eq_dec u t) as [->|Hne]; [now rewrite Hg|].
    rewrite Hoth by auto. apply thr_loc_nocall with (e := fE s); [apply (v_loc s I)|].
    destruct (pc_call (ft_pc (get_fthr s u))) eqn:Hc; auto.
    assert (Hcn : pc_call (ft_pc (get_fthr s u)) <> None) by (rewrite Hc; discriminate).
    destruct (call_chg_or_cntP (fE s) (get_fthr s u) Hcn) as [H|H].
    + rewrite Hnochg in H by auto. discriminate.
    + change (cp s u = true) in H. rewrite (P0_cntP s u I HP0) in H. discriminate.
  - intros u Hu. apply sole_chg in Hu. rewrite Hnochg1 in Hu. discriminate.
  - (* v_thr *) intros u. destruct (Nat.eq_dec u t) as [->|Hne].
    + rewrite Hg. pose proof (lsk_le1 (fE s1) x'). constructor.
      * eapply adv_reqs_ok; eauto.
      * eapply adv_reqs_ok; eauto.
      * intros p Hin. eapply adv_cls; eauto.
      * destruct (ft_pc x'); try exact Logic.I; cbn [pc_reqs pc_ok] in *; try discriminate;
          intros q Hq; rewrite Hnr in Hq; destruct Hq.
      * unfold stale_stm. rewrite Hnc. discriminate.
    + rewrite Hoth by auto. eapply adv_thr_ok; eauto. apply (v_thr s I).
  - (* v_ocur *) intros p Hp. apply (adv_cls_le s s1 t 0 0 p I SA); [now apply (v_ocur s I)|lia].
  - (* v_oprev *) intros p Hp. destruct (v_oprev s I p Hp) as [H0 _].
    pose proof (adv_cls _ _ _ _ _ I SA H0) as H1. split; [now apply fcls_S|now left].
Qed.

Declare Reduction fine_cbn :=
  cbn [f_w f_oprev f_ocur f_thr f_freed f_gep f_wait f_bad set_fthr set_w set_ol set_wait bump_gep
       get_ol ft ft_pc ft_op ft_free with_pc upd set_op reg_return thr_set_reg thr_set_lsq_qs
       thr_set_vec thr_vec t_reg t_lsq t_ls t_qs t_prev t_cur w_ep w_T w_P
       sw_inc_T sw_dec_T sw_inc_TP sw_dec_TP sw_dec_P sw_next_epoch
       u_old u_ecbc u_qs u_te u_with_old fst snd
       is_reg is_unreg is_qr is_q is_pret fop_eqb pc_call chg_pc late_pc sole_pc negb andb orb b2z
       Bool.eqb].

Ltac fsimpl := match goal with |- ?G => let G' := eval fine_cbn in G in change G' end.

(** compute the counting predicates on a record whose fields are known *)
Ltac cnt_unfold :=
  unfold thr_loc, cntT, cntP, wf_pc, quiet, holds_refs, unq, unqU, stale_stm, u_remove_old, fE;
  fsimpl.

Ltac fsimpl_in H := let T := type of H in let T' := eval fine_cbn in T in change T' in H.

Ltac cnt_unfold_in H :=
  unfold thr_loc, cntT, cntP, wf_pc, quiet, holds_refs, unq, unqU, stale_stm, u_remove_old, fE in H;
  fsimpl_in H.

(** a [LocStep] between records whose fields are known, by computation and
    [lia]; [rw] rewrites the tests that remain *)
Ltac loc_with rw :=
  constructor; cnt_unfold; rewrite ?Z.eqb_refl, ?orb_true_r; rw; cbn [b2z negb orb andb];
  repeat split; auto; try lia; try discriminate; try tauto.

Ltac loc_tac := loc_with idtac.

(** On a goal [Inv (set_fthr (..) t x')].  Left over: for [by_repc] [lsk],
    the queue of frees, [holds_refs], the [LocStep], [pc_ok] and the stale
    flag; for [by_step_thr] [holds_refs], the [LocStep] and [thr_ok]; for
    [by_step] the premises of [inv_step] from the waiting sets on. *)
Ltac by_repc s I Hlt Hx :=
  unfold set_fthr; fsimpl; eapply inv_repc with (s := s);
  [exact I|exact Hlt|exact Hx|reflexivity|reflexivity|reflexivity|..].
Ltac by_step_thr s I Hlt Hx :=
  unfold set_fthr; fsimpl; eapply inv_step_thr with (s := s); [exact I|exact Hlt|exact Hx|reflexivity|..].
Ltac by_step s I Hlt Hx :=
  unfold set_fthr; fsimpl; eapply inv_step with (s := s); [exact I|exact Hlt|exact Hx|reflexivity|..].

Ltac zb_tac :=
  repeat match goal with |- context [(?a =? ?b)%Z] => destruct (Z.eqb_spec a b) end;
  cbn [negb orb andb b2z]; try lia.

(** the [adv_seen] in the step equation [H], by [adv_seen_ok]; left over: its
    single-thread-mode premise and the one about the new current-interval
    requests *)
Ltac adv_seen_in H Hok :=
  match type of H with context [adv_seen ?a ?m ?e ?n] =>
    let Ha := fresh "Ha" in
    destruct (adv_seen a m e n) as [[?th' ?f] ?b] eqn:Ha; cbv beta iota in H;
    eapply adv_seen_ok in Ha as (?pv & ?cr & -> & ?Hcr & ?Hpv & ?Hf & ?Hall);
    [|exact (k_cur _ _ _ Hok)|exact (k_prev _ _ _ Hok)|..]
  end.
