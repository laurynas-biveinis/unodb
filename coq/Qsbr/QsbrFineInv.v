(** Invariant of the fine-grained QSBR model: definitions, and facts about the
    classes and the counting predicates. *)
From Coq Require Import List ZArith Bool Lia Arith.
From Unodb Require Import Qsbr.QsbrModel Qsbr.QsbrBase Qsbr.QsbrInv Qsbr.QsbrFine Qsbr.QsbrFineBase.
Import ListNotations.
Local Open Scope Z_scope.

Definition is_reg (o : fop) : bool := match o with OpStart | OpResume => true | _ => false end.
Definition is_unreg (o : fop) : bool := match o with OpPause | OpExit => true | _ => false end.
Definition is_qr (o : fop) : bool := match o with OpQuiescent | OpRetire => true | _ => false end.
Definition is_q (o : fop) : bool := match o with OpQuiescent => true | _ => false end.

(** caller and epoch parameter of remove_thread_from_previous_epoch / change_epoch *)
Definition pc_call (p : pc) : option (caller * Z) :=
  match p with
  | PRmFsub c g | PChXPrev c g _ | PChXCur c g _ _ | PChMove c g _
  | PChAppend c g _ _ | PChLoad c g | PChCas c g _ => Some (c, g)
  | _ => None
  end.

(** the thread has done the last fetch_sub of the epoch and not yet the epoch CAS *)
Definition chg_pc (p : pc) : bool :=
  match p with
  | PChXPrev _ _ _ | PChXCur _ _ _ _ | PChMove _ _ _ | PChAppend _ _ _ _ | PChLoad _ _ | PChCas _ _ _ => true
  | _ => false
  end.

(** ... and has already taken the previous-interval orphans *)
Definition late_pc (p : pc) : bool :=
  match p with
  | PChXCur _ _ _ _ | PChMove _ _ _ | PChAppend _ _ _ _ | PChLoad _ _ | PChCas _ _ _ => true
  | _ => false
  end.

(** an epoch changer that will free the orphans at once (single thread mode seen by the fetch_sub) *)
Definition sole_pc (p : pc) : bool :=
  match p with PChXPrev _ _ true | PChXCur _ _ true _ => true | _ => false end.

Definition is_pret (p : pc) : bool := match p with PRet => true | _ => false end.

Definition unqU (e : Z) (u : uframe) : bool := negb (u_te u =? e) || (u_qs u =? 0).

(** counted in the thread count of the state word *)
Definition cntT (x : fthr) : bool :=
  match ft_pc x with
  | PIdle => t_reg (ft x)
  | PRet => negb (is_unreg (ft_op x))
  | PRegLoad | PRegCas _ => false
  | POLoad _ | POCas _ _ => false
  | _ => true
  end.

(** counted in the threads-in-previous-epoch count, the epoch being [e] *)
Definition cntP (e : Z) (x : fthr) : bool :=
  match ft_pc x with
  | PIdle => t_reg (ft x) && unq e (ft x)
  | PRet => if is_reg (ft_op x) then true else if is_unreg (ft_op x) then false else unq e (ft x)
  | PRegSpin oe => negb (oe =? e)
  | PRetObs _ | PRetLoad _ | PQLoad => unq e (ft x)
  | PRmFsub _ _ => true
  | PULoad u | PUCas u => unqU e u
  | _ => false
  end.

(** program counter, operation and registered flag fit together *)
Definition wf_pc (x : fthr) : bool :=
  let r := t_reg (ft x) in
  let o := ft_op x in
  let callok := fun c => match c with CallQ _ => is_q o && r | CallU _ => is_unreg o && negb r end in
  match ft_pc x with
  | PIdle => true
  | PRet => Bool.eqb r (is_qr o)
  | PRegLoad | PRegCas _ | PRegSpin _ => is_reg o && negb r
  | PRetObs _ | PRetLoad _ => fop_eqb o OpRetire && r
  | PQLoad => is_q o && r
  | PRmFsub c _ | PChXPrev c _ _ | PChXCur c _ _ _ | PChMove c _ _
  | PChAppend c _ _ _ | PChLoad c _ | PChCas c _ _ => callok c
  | PULoad _ | PUCas _ | POLoad _ | POCas _ _ => is_unreg o && negb r
  end.

(** cannot hold references and will not before the next epoch change *)
Definition quiet (y : fthr) : bool :=
  negb (t_reg (ft y)) && negb (is_reg (ft_op y) && is_pret (ft_pc y)).

(** the call acts on a single-thread-mode flag computed from a word loaded earlier *)
Definition stale_stm (p : pc) : bool :=
  match pc_call p with
  | Some (CallQ st, _) => sw_stm st
  | Some (CallU u, _) => sw_stm (u_old u)
  | None => false
  end.

(** [fE]: the epoch of the state word; [FW s p]: the ghost waiting set of request [p];
    [hr s v]: thread [v] may hold references; [cp s v]: thread [v] is counted in P in the current epoch *)
Definition fE (s : fstate) : Z := w_ep (f_w s).
Definition FW (s : fstate) (p : ptr) : list tid := wait_of (f_wait s) p.
Definition hr (s : fstate) (v : tid) : bool := holds_refs (get_fthr s v).
Definition cp (s : fstate) (v : tid) : bool := cntP (fE s) (get_fthr s v).

(** class 0: waiting set within the threads that may hold references;
    class 1: ... and are still counted in the current epoch;
    class 2 and above: empty *)
Definition fcls (s : fstate) (k : nat) (p : ptr) : Prop :=
  match k with
  | O => forall v, In v (FW s p) -> hr s v = true
  | S O => forall v, In v (FW s p) -> hr s v = true /\ cp s v = true
  | _ => FW s p = []
  end.

(** 0 if the thread object has observed epoch [e], else 1: its lists are then one epoch change
    older than their names say, and their requests one class higher ([QsbrRounds.lag], as a class offset) *)
Definition lsk (e : Z) (x : fthr) : nat := if e =? t_ls (ft x) then 0%nat else 1%nat.

Definition late (s : fstate) : Prop := exists v, late_pc (ft_pc (get_fthr s v)) = true.

(** facts about one thread that depend on the epoch only *)
Definition thr_loc (e : Z) (x : fthr) : Prop :=
  wf_pc x = true /\ 0 <= t_qs (ft x) /\
  (is_pret (ft_pc x) = true -> is_reg (ft_op x) = true -> t_qs (ft x) = 0) /\
  match pc_call (ft_pc x) with
  | Some (CallQ _, g) => g = e /\ t_lsq (ft x) = e /\ t_qs (ft x) = 0
  | Some (CallU u, g) => g = e /\ w_ep (u_old u) = e
  | None => True
  end.

(** requests held in the locals of a call *)
Definition pc_ok (s : fstate) (u : tid) (p : pc) : Prop :=
  match p with
  | PRetLoad q => ~ In u (FW s q) /\ fcls s 0 q
  | PChXCur _ _ _ tp => forall q, In q (ol_reqs tp) -> fcls s 2 q
  | PChMove _ _ tc | PChAppend _ _ tc _ => forall q, In q (ol_reqs tc) -> fcls s 0 q
  | _ => True
  end.

(** [k_cur], [k_prev]: the owner never waits for its own requests; a request of the previous-interval
    list is one class above one of the current-interval list, and both one higher when the thread has
    not observed the current epoch ([lsk]).  [k_free]: what the call has decided to free (the frees
    are separate events) waits for nobody.  [k_pc]: the requests in the locals of the call.
    [k_stm]: a call that goes by a stale single-thread-mode flag will free the thread's lists without
    waiting for an epoch, so they wait for nobody already. *)
Record thr_ok (s : fstate) (u : tid) (x : fthr) : Prop := {
  k_cur : forall p, In p (t_cur (ft x)) -> ~ In u (FW s p) /\ fcls s (lsk (fE s) x) p;
  k_prev : forall p, In p (t_prev (ft x)) -> ~ In u (FW s p) /\ fcls s (S (lsk (fE s) x)) p;
  k_free : forall p, In p (ft_free x) -> fcls s 2 p;
  k_pc : pc_ok s u (ft_pc x);
  k_stm : stale_stm (ft_pc x) = true ->
          forall p, In p (t_cur (ft x) ++ t_prev (ft x)) -> fcls s 2 p
}.

(** [v_T], [v_P]: the two counts of the word are the numbers of threads that [cntT] / [cntP]
    count by program counter.  [v_chg]: between the last fetch_sub of an epoch and the epoch CAS
    P is 0 and there is one such thread.  [v_sole]: if it saw single-thread mode, the others neither
    hold references nor will before the CAS.  [v_ocur], [v_oprev]: orphans of the current interval have
    class 0, those of the previous interval class 1 - except that the changer puts the
    current-interval orphans onto the previous-interval list before its CAS shifts the classes
    ([late]): then only class 0. *)
Record Inv (s : fstate) : Prop := {
  v_ep : 0 <= fE s < 4;
  v_T : w_T (f_w s) = fcnt cntT (f_thr s);
  v_P : w_P (f_w s) = fcnt (cntP (fE s)) (f_thr s);
  v_chg : forall u, chg_pc (ft_pc (get_fthr s u)) = true ->
          w_P (f_w s) = 0 /\ forall v, chg_pc (ft_pc (get_fthr s v)) = true -> v = u;
  v_loc : forall u, thr_loc (fE s) (get_fthr s u);
  v_sole : forall u, sole_pc (ft_pc (get_fthr s u)) = true ->
           forall v, v <> u -> quiet (get_fthr s v) = true;
  v_thr : forall u, thr_ok s u (get_fthr s u);
  v_ocur : forall p, In p (ol_reqs (f_ocur s)) -> fcls s 0 p;
  v_oprev : forall p, In p (ol_reqs (f_oprev s)) -> fcls s 0 p /\ (fcls s 1 p \/ late s)
}.

Lemma fcls_S : forall s k p, fcls s (S k) p -> fcls s k p.
Proof.
  intros s [|[|k]] p H; cbn [fcls] in *.
  - intros v Hv. now destruct (H v Hv).
  - intros v Hv. rewrite H in Hv. contradiction.
  - exact H.
Qed.

Lemma fcls_le : forall s k k' p, (k <= k')%nat -> fcls s k' p -> fcls s k p.
Proof. intros s k k' p Hle. induction Hle; auto. intros H. apply IHHle. now apply fcls_S. Qed.

Lemma fcls_nil : forall s k p, FW s p = [] -> fcls s k p.
Proof. intros s k p H. apply (fcls_le s k (S (S k))); [lia|]. exact H. Qed.

Lemma fcls_0 : forall s k p, fcls s k p -> fcls s 0 p.
Proof. intros s k p H. apply (fcls_le s 0 k); [lia|exact H]. Qed.

Definition thr_reqs (x : fthr) : list ptr :=
  t_prev (ft x) ++ t_cur (ft x) ++ pc_reqs (ft_pc x) ++ ft_free x.

Lemma fpending_eq : forall s,
  fpending s = concat (map thr_reqs (f_thr s)) ++ ol_reqs (f_oprev s) ++ ol_reqs (f_ocur s).
Proof. reflexivity. Qed.

Lemma in_concat_nth : forall (l : list fthr) u p, In p (thr_reqs (nth u l fthr0)) ->
  In p (concat (map thr_reqs l)).
Proof.
  induction l as [|x l IH]; intros u p H.
  - destruct u; cbn in H; contradiction.
  - cbn [map concat]. apply in_or_app. destruct u as [|u]; cbn [nth] in H; [now left|right; eauto].
Qed.

Lemma in_fpending_thr : forall s u p, In p (thr_reqs (get_fthr s u)) -> In p (fpending s).
Proof.
  intros s u p H. rewrite fpending_eq. apply in_or_app. left. eapply in_concat_nth; eauto.
Qed.

Lemma in_fpending_oprev : forall s p, In p (ol_reqs (f_oprev s)) -> In p (fpending s).
Proof. intros s p H. rewrite fpending_eq. apply in_or_app. right. apply in_or_app. now left. Qed.

Lemma in_fpending_ocur : forall s p, In p (ol_reqs (f_ocur s)) -> In p (fpending s).
Proof. intros s p H. rewrite fpending_eq. apply in_or_app. right. apply in_or_app. now right. Qed.

Lemma in_reqs_cur : forall x p, In p (t_cur (ft x)) -> In p (thr_reqs x).
Proof. intros. unfold thr_reqs. apply in_or_app. right. apply in_or_app. now left. Qed.
Lemma in_reqs_prev : forall x p, In p (t_prev (ft x)) -> In p (thr_reqs x).
Proof. intros. unfold thr_reqs. apply in_or_app. now left. Qed.
Lemma in_reqs_pc : forall x p, In p (pc_reqs (ft_pc x)) -> In p (thr_reqs x).
Proof. intros. unfold thr_reqs. apply in_or_app. right. apply in_or_app. right. apply in_or_app. now left. Qed.
Lemma in_reqs_free : forall x p, In p (ft_free x) -> In p (thr_reqs x).
Proof. intros. unfold thr_reqs. apply in_or_app. right. apply in_or_app. right. apply in_or_app. now right. Qed.

Lemma chg_cntT : forall x, chg_pc (ft_pc x) = true -> cntT x = true.
Proof. intros x H. unfold cntT. destruct (ft_pc x); cbn [chg_pc] in H; congruence. Qed.

Lemma chg_cntP : forall e x, chg_pc (ft_pc x) = true -> cntP e x = false.
Proof. intros e x H. unfold cntP. destruct (ft_pc x); cbn [chg_pc] in H; congruence. Qed.

Lemma sole_chg : forall p, sole_pc p = true -> chg_pc p = true.
Proof. intros p H. destruct p; cbn [sole_pc chg_pc] in *; congruence. Qed.

Lemma late_chg : forall p, late_pc p = true -> chg_pc p = true.
Proof. intros p H. destruct p; cbn [late_pc chg_pc] in *; congruence. Qed.

Lemma notT_quiet : forall x, wf_pc x = true -> cntT x = false -> quiet x = true.
Proof.
  intros x Hw Hc. unfold wf_pc, cntT, quiet in *.
  destruct (ft_pc x); cbn [is_pret] in *; try discriminate;
    destruct (t_reg (ft x)); destruct (ft_op x); cbn in *; congruence.
Qed.

Lemma chg_hr_false : forall x, wf_pc x = true -> chg_pc (ft_pc x) = true -> holds_refs x = false.
Proof.
  intros x Hw Hc. unfold wf_pc, holds_refs in *.
  destruct (ft_pc x); try discriminate Hc; destruct c; destruct (ft_op x); destruct (t_reg (ft x));
    cbn in *; congruence.
Qed.

Lemma cntT_fthr0 : cntT fthr0 = false.
Proof. reflexivity. Qed.
Lemma cntP_fthr0 : forall e, cntP e fthr0 = false.
Proof. reflexivity. Qed.

Lemma chg_lt : forall s u, chg_pc (ft_pc (get_fthr s u)) = true -> (u < length (f_thr s))%nat.
Proof.
  intros s u H. destruct (Nat.ltb_spec u (length (f_thr s))); auto.
  rewrite get_fthr_overflow in H by lia. discriminate.
Qed.

Lemma P0_cntP : forall s u, Inv s -> w_P (f_w s) = 0 -> cp s u = false.
Proof.
  intros s u I HP. unfold cp, get_fthr.
  destruct (Nat.ltb_spec u (length (f_thr s))) as [Hlt|Hge].
  - apply fcnt_zero_all; auto. rewrite <- (v_P s I). exact HP.
  - rewrite nth_overflow by lia. reflexivity.
Qed.

Lemma chg_T1 : forall s u, Inv s -> chg_pc (ft_pc (get_fthr s u)) = true -> 1 <= w_T (f_w s).
Proof.
  intros s u I H. rewrite (v_T s I). apply fcnt_pos with (u := u); [reflexivity|].
  now apply chg_cntT.
Qed.

Lemma unqU_next : forall e u, 0 <= e < 4 -> unqU e u = false -> unqU (ep_adv e) u = true.
Proof. intros e u. apply unq_adv. Qed.

(** threads not counted in the old epoch are exactly the counted threads of the new one *)
Lemma next_cntP : forall e y, 0 <= e < 4 -> wf_pc y = true -> chg_pc (ft_pc y) = false ->
  cntP e y = false -> cntP (ep_adv e) y = cntT y.
Proof.
  intros e y He Hw Hc H. pose proof (ep_adv_neq e He) as Hne.
  unfold wf_pc, cntP, cntT in *.
  destruct (ft_pc y); cbn [chg_pc] in Hc; try discriminate; try reflexivity.
  - destruct (t_reg (ft y)); cbn [andb] in *; [|reflexivity]. now apply unq_next.
  - destruct (ft_op y); cbn [is_reg is_unreg is_qr negb] in *; try discriminate; try reflexivity;
      now apply unq_next.
  - destruct (Z.eqb_spec old_epoch e); cbn [negb] in H; [|discriminate]. subst.
    destruct (Z.eqb_spec e (ep_adv e)); [congruence|reflexivity].
  - now apply unq_next.
  - now apply unq_next.
  - now apply unq_next.
  - now apply unqU_next.
  - now apply unqU_next.
Qed.

Lemma hr_next : forall e y, 0 <= e < 4 -> wf_pc y = true -> holds_refs y = true ->
  cntP e y = false -> cntP (ep_adv e) y = true.
Proof.
  intros e y He Hw Hh H.
  assert (Hc : chg_pc (ft_pc y) = false /\ cntT y = true).
  { unfold holds_refs, wf_pc, cntT in *. destruct (t_reg (ft y)); [|discriminate].
    destruct (ft_pc y); cbn [chg_pc]; auto;
      destruct (ft_op y); try destruct c; cbn in *; auto; discriminate. }
  destruct Hc as [Hc HT]. rewrite next_cntP; auto.
Qed.

Lemma lsk_le1 : forall e x, (lsk e x <= 1)%nat.
Proof. intros. unfold lsk. destruct (e =? t_ls (ft x)); lia. Qed.

Lemma lsk_seen : forall e x k, t_ls (ft x) = e -> (lsk e x <= k)%nat.
Proof. intros e x k <-. unfold lsk. rewrite Z.eqb_refl. lia. Qed.

Lemma thr_loc_nocall : forall e e' y, thr_loc e y -> pc_call (ft_pc y) = None -> thr_loc e' y.
Proof.
  intros e e' y [H1 [H2 [H3 H4]]] Hn. unfold thr_loc. rewrite Hn. auto.
Qed.

Lemma call_chg_or_cntP : forall e y, pc_call (ft_pc y) <> None ->
  chg_pc (ft_pc y) = true \/ cntP e y = true.
Proof.
  intros e y H. unfold cntP. destruct (ft_pc y); cbn [pc_call chg_pc] in *; auto; congruence.
Qed.

