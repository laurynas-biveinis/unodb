(** Bookkeeping of pending requests in the fine-grained model: every step
    conserves them (nothing lost, nothing duplicated).  Purely structural. *)
From Coq Require Import List ZArith Bool Lia Arith Permutation.
From Unodb Require Import Qsbr.QsbrModel Qsbr.QsbrBase Qsbr.QsbrFine Qsbr.QsbrFineBase Qsbr.QsbrFineInv.
Import ListNotations.
Local Open Scope Z_scope.

Definition ev_freed (e : fevent) : list ptr := match e with FFree _ p => [p] | _ => [] end.
Definition ev_retired (e : fevent) : list ptr := match e with FRetire _ p => [p] | _ => [] end.

Lemma co_thr_set : forall l i x a, (i < length l)%nat ->
  (co (concat (map thr_reqs (set_nth_fthr i x l))) a + co (thr_reqs (nth i l fthr0)) a =
   co (concat (map thr_reqs l)) a + co (thr_reqs x) a)%nat.
Proof.
  induction l as [|y l IH]; intros i x a Hi; cbn [length] in Hi; [lia|].
  destruct i as [|i]; cbn [set_nth_fthr map concat nth]; rewrite !co_app.
  - lia.
  - specialize (IH i x a). lia.
Qed.

Lemma pend_step : forall s s' t x' (F R : ptr -> nat),
  (t < length (f_thr s))%nat -> f_thr s' = set_nth_fthr t x' (f_thr s) ->
  (forall a, (co (thr_reqs x') a + co (ol_reqs (f_oprev s')) a + co (ol_reqs (f_ocur s')) a + F a =
              co (thr_reqs (get_fthr s t)) a + co (ol_reqs (f_oprev s)) a + co (ol_reqs (f_ocur s)) a + R a)%nat) ->
  forall a, (co (fpending s') a + F a = co (fpending s) a + R a)%nat.
Proof.
  intros s s' t x' F R Hlt Hthr H a. rewrite !fpending_eq, !co_app, Hthr.
  pose proof (co_thr_set (f_thr s) t x' a Hlt) as Hc. specialize (H a).
  unfold get_fthr in H. lia.
Qed.

Lemma co_cons : forall p l a, co (p :: l) a = (co [p] a + co l a)%nat.
Proof. intros. change (p :: l) with ([p] ++ l). apply co_app. Qed.

Lemma ol_reqs_nil : ol_reqs [] = [].
Proof. reflexivity. Qed.

Lemma exec_prev_co : forall th stm de nc th' f a, exec_prev th stm de nc = (th', f) ->
  (co (t_prev th') a + co (t_cur th') a + co f a = co (t_prev th) a + co (t_cur th) a + co nc a)%nat.
Proof.
  intros th stm de nc th' f a H. unfold exec_prev in H.
  destruct stm; injection H as <- <-; cbn [t_prev t_cur]; rewrite ?co_app, ?co_nil; lia.
Qed.

(** the hypothesis: if the epoch was already seen [adv_seen] drops [nc] *)
Lemma adv_seen_co : forall th stm e nc th' f b a, adv_seen th stm e nc = (th', f, b) ->
  nc = [] \/ (t_ls th =? e) = false ->
  (co (t_prev th') a + co (t_cur th') a + co f a = co (t_prev th) a + co (t_cur th) a + co nc a)%nat.
Proof.
  intros th stm e nc th' f b a H Hn. unfold adv_seen in H.
  destruct (Z.eqb_spec e (t_ls th)) as [He|He].
  - injection H as <- <- <-. destruct Hn as [->|Hn]; [rewrite co_nil; lia|].
    rewrite He, Z.eqb_refl in Hn. discriminate.
  - destruct (exec_prev th stm e nc) as [x1 f1] eqn:Hx. injection H as <- <- <-.
    now apply exec_prev_co with (a := a) in Hx.
Qed.

Lemma pc_reqs_orph : forall th, pc_reqs (orph_next th) = [].
Proof. intros th. unfold orph_next. destruct (t_prev th); [destruct (t_cur th)|]; reflexivity. Qed.

Lemma pc_reqs_decide : forall u, pc_reqs (u_decide u) = [].
Proof.
  intros u. unfold u_decide. destruct (w_P (u_old u) =? 0); [reflexivity|].
  destruct (u_advance u); reflexivity.
Qed.

(** destruct the scrutinee of the outermost [if] / [match] / [let] of a step equation *)
Ltac brk H :=
  repeat match type of H with
  | (if ?c then _ else _) = Some _ => destruct c eqn:?
  | (match ?c with _ => _ end) = Some _ => destruct c eqn:?
  | (let _ := _ in _) = Some _ => cbv zeta in H
  end; try discriminate H.

(* occurrence counts of the requests of a thread record / an orphan list given by its fields, as sums *)
Ltac co_norm :=
  unfold thr_reqs;
  cbn [ft ft_pc ft_op ft_free with_pc upd set_op reg_return thr_set_reg thr_set_lsq_qs thr_set_vec thr_vec
       t_reg t_lsq t_ls t_qs t_prev t_cur pc_reqs f_w f_oprev f_ocur f_thr set_fthr set_w set_ol set_wait
       bump_gep get_ol ev_freed ev_retired];
  repeat rewrite ?co_app, ?ol_reqs_app, ?ol_reqs_cons, ?ol_reqs_nil, ?co_nil, ?pc_reqs_orph, ?pc_reqs_decide.

(** One case per (event, program counter) that [fstep] accepts; [pend_step]
    reduces each to the thread's own lists and the two orphan lists, where it
    is arithmetic on occurrence counts. *)
Lemma fstep_pend : forall s e s', fstep s e = Some s' ->
  forall a, (co (fpending s') a + co (ev_freed e) a = co (fpending s) a + co (ev_retired e) a)%nat.
Proof.
  intros s e s' H. apply fstep_cases in H as [Hlt H]. cbv zeta in H.
  remember (get_fthr s (ev_tid e)) as x eqn:Hx. destruct x as [[reg lsq ls qs prev cur] pc op fr].
  (* goals in the order of [fevent]'s constructors: 14 [FFree], 1 and 2 [FCall] and [FRet], 12 [FAlloc];
     the others are steps inside a call, split by program counter *)
  destruct e; cbn [ev_tid ft_free ft_pc] in *.
  14: unfold step_free in H; cbn [ft_free] in H.
  1-13: destruct H as [-> H].
  1,2: destruct H as [-> H].
  3-11,13: unfold step_pc in H; cbn [ft_pc] in H; destruct pc; try discriminate H.
  all: unfold step_alloc, step_call, step_ret, step_reg, step_retire, step_q, step_epoch,
         step_unreg, step_orph, rm_return in H;
       cbn [ft ft_pc ft_op ft_free t_reg t_lsq t_ls t_qs t_prev t_cur] in H.
  all: try match goal with c : caller |- _ => destruct c end.
  all: repeat match type of H with
       | context [adv_seen ?x ?m ?d ?n] => destruct (adv_seen x m d n) as [[? ?] ?] eqn:?
       | context [exec_prev ?x ?m ?d ?n] => destruct (exec_prev x m d n) as [? ?] eqn:?
       end.
  all: brk H; injection H as <-; try reflexivity.
  all: eapply pend_step; [exact Hlt|reflexivity|]; intros a; rewrite <- Hx.
  all: repeat match goal with
       | Hq : adv_seen _ _ _ _ = _ |- _ =>
           apply adv_seen_co with (a := a) in Hq;
           [cbn [t_prev t_cur thr_set_lsq_qs] in Hq; rewrite ?co_nil in Hq
           |first [now left|right; cbn [t_ls]; now apply negb_true_iff]]
       | Hq : exec_prev _ _ _ _ = _ |- _ =>
           apply exec_prev_co with (a := a) in Hq; cbn [t_prev t_cur thr_set_lsq_qs] in Hq;
           rewrite ?co_nil in Hq
       | Hq : (_ =? _) = true |- _ => apply Z.eqb_eq in Hq; try subst
       | Hq : append_from _ _ _ = Some _ |- _ => apply append_from_eq in Hq; subst
       | l : olist |- _ => destruct l
       | |- context [match ?o with OpStart => _ | _ => _ end] => destruct o
       end.
  all: repeat match goal with |- context [if ?c then _ else _] => destruct c end.
  all: co_norm; try lia.
  (* the move onto the empty previous-interval list; the free *)
  all: try (match goal with Hq : f_oprev _ = [] |- _ => rewrite Hq end; co_norm; lia).
  all: match goal with |- context [co (?q :: ?r) _] => is_var r; rewrite (co_cons q r) end; lia.
Qed.
