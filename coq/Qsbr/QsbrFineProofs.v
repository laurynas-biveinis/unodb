(** Safety of the fine-grained QSBR model for all interleavings. *)
From Coq Require Import List ZArith Bool Lia Arith Permutation.
From Unodb Require Import Qsbr.QsbrModel Qsbr.QsbrBase Qsbr.QsbrInv Qsbr.QsbrFine Qsbr.QsbrFineBase
  Qsbr.QsbrFineInv Qsbr.QsbrFineFrame Qsbr.QsbrFinePend Qsbr.QsbrFineStepA Qsbr.QsbrFineStepB
  Qsbr.QsbrFineStepC.
Import ListNotations.
Local Open Scope Z_scope.

Lemma fstep_ghost : forall s e s', fstep s e = Some s' ->
  match e with
  | FFree _ p => f_freed s' = p :: f_freed s
  | FAlloc _ p => f_freed s' = remove_ptr p (f_freed s) /\ f_bad s' = f_bad s
  | _ => f_freed s' = f_freed s /\ f_bad s' = f_bad s
  end.
Proof.
  intros s e s' H. apply fstep_cases in H as [_ H].
  (* goals in the order of [fevent]'s constructors: 14 is [FFree]; 1, 2 are [FCall], [FRet] *)
  destruct e; cbn [ev_tid] in H.
  1-13: destruct H as [_ H].
  1,2: destruct H as [_ H].
  all: unfold step_free, step_alloc, step_call, step_ret, step_pc, step_reg, step_retire, step_q,
         step_epoch, step_unreg, step_orph in H.
  all: brk H; inversion H; subst; auto.
Qed.

Lemma step_pc_inv : forall s t x e s', Inv s -> (t < length (f_thr s))%nat -> get_fthr s t = x ->
  ft_free x = [] -> (forall u p, e = FRetire u p -> ~ In p (fpending s)) ->
  step_pc s t x e = Some s' -> Inv s'.
Proof.
  intros s t x e s' I Hlt Hx Hfr Hnew H. unfold step_pc in H.
  (* the program counters inside a call, grouped as in [step_pc] *)
  destruct (ft_pc x) eqn:Hpc; try discriminate H.
  1-3: eapply step_reg_inv; eauto.
  1-2: eapply step_retire_inv; eauto.
  1: eapply step_q_inv; eauto.
  1-7: eapply step_epoch_inv; eauto.
  1-2: eapply step_unreg_inv; eauto.
  1-2: eapply step_orph_inv; eauto.
Qed.

Lemma fstep_inv : forall s e s', Inv s -> fstep s e = Some s' ->
  (forall p, In p (ev_retired e) -> ~ In p (fpending s)) ->
  Inv s' /\ f_bad s' = f_bad s.
Proof.
  intros s e s' I H Hnew. pose proof (fstep_ghost s e s' H) as Hg.
  apply fstep_cases in H as [Hlt H].
  destruct e; cbn [ev_tid] in *.
  14: (* FFree *) now apply (step_free_inv s t _ p s' I Hlt eq_refl).
  all: split; [|apply Hg]; clear Hg; destruct H as [Hfr H].
  1: (* FCall *) destruct H as [Hpc H]; eapply step_call_inv; eauto.
  1: (* FRet *) destruct H as [Hpc H]; eapply step_ret_inv; eauto.
  10: (* FAlloc *) exact (step_alloc_inv s t _ p s' I H).
  all: eapply step_pc_inv; eauto; intros u q Heq; try discriminate Heq.
  (* FRetire *) injection Heq as _ <-. apply Hnew. now left.
Qed.

Definition retired_of (evs : list fevent) : list ptr := flat_map ev_retired evs.
Definition freed_of (evs : list fevent) : list ptr := flat_map ev_freed evs.

(** no block is retired twice (a caller-side double free); without this safety
    fails, see [QsbrProofs.qrun_safe_needs_nodup] for the coarse model *)
Definition distinct_retires (evs : list fevent) : Prop := NoDup (retired_of evs).

(** what [finit n e] needs: the epoch parameter is an epoch; [n] is not constrained *)
Definition fine_init_ok (n : nat) (e : Z) : Prop := 0 <= e < 4.

Lemma get_finit : forall n e u, get_fthr (finit n e) u = fthr0.
Proof.
  intros n e u. unfold get_fthr, finit. cbn [f_thr].
  destruct (Nat.ltb_spec u n).
  - apply nth_repeat.
  - apply nth_overflow. rewrite repeat_length. lia.
Qed.

Lemma fcnt_repeat0 : forall f n, f fthr0 = false -> fcnt f (repeat fthr0 n) = 0.
Proof. intros f n H. induction n as [|n IH]; cbn [repeat fcnt]; [reflexivity|]. rewrite H, IH. reflexivity. Qed.

Lemma inv_init : forall n e, fine_init_ok n e -> Inv (finit n e).
Proof.
  intros n e He. constructor.
  - exact He.
  - cbn. now rewrite fcnt_repeat0.
  - cbn [finit f_w w_P f_thr]. now rewrite fcnt_repeat0.
  - intros u H. rewrite get_finit in H. discriminate.
  - intros u. rewrite get_finit. cbv. intuition discriminate.
  - intros u H. rewrite get_finit in H. discriminate.
  - intros u. rewrite get_finit. constructor; cbn; intros; try contradiction; try discriminate; auto.
  - intros p H. destruct H.
  - intros p H. destruct H.
Qed.

Lemma fpending_init : forall n e, fpending (finit n e) = [].
Proof.
  intros n e. rewrite fpending_eq. cbn [finit f_thr f_oprev f_ocur]. rewrite ol_reqs_nil, !app_nil_r.
  induction n as [|n IH]; cbn [repeat map concat]; [reflexivity|]. now rewrite IH.
Qed.

Lemma pend_in_step : forall s e s' p, fstep s e = Some s' -> In p (fpending s') ->
  In p (fpending s) \/ In p (ev_retired e).
Proof.
  intros s e s' p H Hin. pose proof (fstep_pend s e s' H p) as Hc.
  apply co_in in Hin. rewrite !co_in. lia.
Qed.

Lemma frun_inv : forall evs s s', Inv s -> frun s evs = Some s' ->
  NoDup (retired_of evs) -> (forall p, In p (fpending s) -> ~ In p (retired_of evs)) ->
  Inv s' /\ f_bad s' = f_bad s.
Proof.
  induction evs as [|e evs IH]; intros s s' I H Hnd Hfresh; cbn [frun] in H.
  - inversion H; subst. auto.
  - destruct (fstep s e) as [s1|] eqn:Hs; [|discriminate].
    unfold retired_of in *. cbn [flat_map] in Hnd, Hfresh.
    assert (Hdis : forall p, In p (ev_retired e) -> ~ In p (flat_map ev_retired evs)).
    { intros p Hp Hq. pose proof (proj1 (NoDup_count_occ Z.eq_dec _) Hnd p) as Hc.
      rewrite count_occ_app in Hc.
      pose proof (proj1 (count_occ_In Z.eq_dec _ _) Hp). pose proof (proj1 (count_occ_In Z.eq_dec _ _) Hq).
      unfold ptr in *. lia. }
    destruct (fstep_inv s e s1 I Hs) as [I1 Hb1].
    { intros p Hp Hq. apply (Hfresh p Hq). apply in_or_app. now left. }
    destruct (IH s1 s' I1 H) as [I' Hb'].
    + clear -Hnd. induction (ev_retired e) as [|q l IHl]; [exact Hnd|].
      apply IHl. cbn [app] in Hnd. now inversion Hnd.
    + intros p Hp. destruct (pend_in_step s e s1 p Hs Hp) as [Hq|Hq].
      * intros Hr. apply (Hfresh p Hq). apply in_or_app. now right.
      * now apply Hdis.
    + split; [exact I'|congruence].
Qed.

Lemma frun_init_inv : forall n e evs s, fine_init_ok n e ->
  frun (finit n e) evs = Some s -> distinct_retires evs -> Inv s /\ f_bad s = [].
Proof.
  intros n e evs s He H Hd. apply (frun_inv evs (finit n e) s (inv_init n e He) H Hd).
  intros p Hp. rewrite fpending_init in Hp. destruct Hp.
Qed.

(** SAFETY for all interleavings: no block is freed while a thread that was
    registered (and outside quiescent()) when it was retired has not since
    entered quiescent() / unregister *)
Theorem fine_safe : forall n e evs s, fine_init_ok n e ->
  frun (finit n e) evs = Some s -> distinct_retires evs -> fbad s = [].
Proof. intros n e evs s He H Hd. apply (frun_init_inv n e evs s He H Hd). Qed.

Theorem fine_reach_inv : forall n e evs s, fine_init_ok n e ->
  frun (finit n e) evs = Some s -> distinct_retires evs -> Inv s.
Proof. intros n e evs s He H Hd. apply (frun_init_inv n e evs s He H Hd). Qed.

Lemma frun_pend : forall evs s s', frun s evs = Some s' ->
  forall a, (co (fpending s') a + co (freed_of evs) a = co (fpending s) a + co (retired_of evs) a)%nat.
Proof.
  induction evs as [|e evs IH]; intros s s' H a; cbn [frun] in H.
  - inversion H; subst. reflexivity.
  - destruct (fstep s e) as [s1|] eqn:Hs; [|discriminate].
    unfold freed_of, retired_of in *. cbn [flat_map]. rewrite !co_app.
    pose proof (fstep_pend s e s1 Hs a). pose proof (IH s1 s' H a). lia.
Qed.

(** nothing is lost and nothing is freed twice *)
Theorem fine_exactly_once : forall n e evs s,
  frun (finit n e) evs = Some s ->
  Permutation (fpending s ++ freed_of evs) (retired_of evs).
Proof.
  intros n e evs s H. apply perm_co. intros a. rewrite co_app.
  pose proof (frun_pend evs _ _ H a) as Hc. rewrite fpending_init in Hc. cbn [co count_occ] in Hc.
  unfold co in *. lia.
Qed.

(** with distinct retires, no block is freed twice and no freed block is still pending *)
Corollary fine_freed_nodup : forall n e evs s,
  frun (finit n e) evs = Some s -> distinct_retires evs -> NoDup (fpending s ++ freed_of evs).
Proof.
  intros n e evs s H Hd. eapply Permutation_NoDup; [|exact Hd].
  apply Permutation_sym. eapply fine_exactly_once; eauto.
Qed.

Lemma fcnt_filter : forall f l, fcnt f l = Z.of_nat (length (filter f l)).
Proof.
  induction l as [|x l IH]; [reflexivity|].
  cbn [fcnt filter]. destruct (f x); cbn [b2z length]; lia.
Qed.

Lemma cntT_reg : forall x, wf_pc x = true ->
  (ft_pc x = PIdle \/ is_qr (ft_op x) = true) -> cntT x = t_reg (ft x).
Proof.
  intros x Hw [Hp|Ho]; unfold cntT, wf_pc in *.
  - now rewrite Hp.
  - destruct (ft_pc x); auto; try destruct c; destruct (ft_op x); try discriminate Ho;
      destruct (t_reg (ft x)); cbn in *; congruence.
Qed.

(** the hypothesis: no thread is inside register / unregister *)
Theorem fine_thread_count : forall n e evs s, fine_init_ok n e ->
  frun (finit n e) evs = Some s -> distinct_retires evs ->
  (forall u, ft_pc (get_fthr s u) = PIdle \/ is_qr (ft_op (get_fthr s u)) = true) ->
  w_T (f_w s) = Z.of_nat (length (filter (fun x => t_reg (ft x)) (f_thr s))).
Proof.
  intros n e evs s He H Hd Hout. pose proof (fine_reach_inv n e evs s He H Hd) as I.
  rewrite (v_T s I), <- fcnt_filter. apply fcnt_ext_idx. intros u Hu.
  apply cntT_reg; [apply (v_loc s I u)|apply Hout].
Qed.

Definition no_alloc (evs : list fevent) : Prop :=
  forall e, In e evs -> match e with FAlloc _ _ => False | _ => True end.

Lemma frun_freed : forall evs s s', frun s evs = Some s' -> no_alloc evs ->
  Permutation (f_freed s') (freed_of evs ++ f_freed s).
Proof.
  induction evs as [|e evs IH]; intros s s' H Hna; cbn [frun] in H.
  - inversion H; subst. apply Permutation_refl.
  - destruct (fstep s e) as [s1|] eqn:Hs; [|discriminate].
    assert (Hna' : no_alloc evs) by (intros x Hx; apply Hna; now right).
    pose proof (IH s1 s' H Hna') as Hp. pose proof (fstep_ghost s e s1 Hs) as Hf.
    pose proof (Hna e (or_introl eq_refl)) as He.
    unfold freed_of in *. cbn [flat_map].
    assert (Hf' : f_freed s1 = ev_freed e ++ f_freed s) by (destruct e; try apply Hf; contradiction).
    rewrite Hf' in Hp. eapply Permutation_trans; [exact Hp|].
    rewrite <- app_assoc, !app_assoc. apply Permutation_app_tail. apply Permutation_app_comm.
Qed.

(** in a history without re-allocation, pending and freed blocks of the final state together are
    the retired blocks, each once *)
Corollary fine_exactly_once_state : forall n e evs s,
  frun (finit n e) evs = Some s -> no_alloc evs ->
  Permutation (fpending s ++ f_freed s) (retired_of evs).
Proof.
  intros n e evs s H Hna. eapply Permutation_trans; [|eapply fine_exactly_once; eauto].
  apply Permutation_app_head. pose proof (frun_freed evs _ _ H Hna) as Hp.
  cbn [finit f_freed] in Hp. now rewrite app_nil_r in Hp.
Qed.
