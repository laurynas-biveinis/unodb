(** Invariant preservation: alloc, free, call, return, register_thread. *)
From Coq Require Import List ZArith Bool Lia Arith.
From Unodb Require Import Qsbr.QsbrModel Qsbr.QsbrBase Qsbr.QsbrInv Qsbr.QsbrFine Qsbr.QsbrFineBase
  Qsbr.QsbrFineInv Qsbr.QsbrFineFrame.
Import ListNotations.
Local Open Scope Z_scope.

Lemma step_alloc_inv : forall s t x p s', Inv s -> step_alloc s t x p = Some s' -> Inv s'.
Proof.
  intros s t x p s' I H. unfold step_alloc in H. destruct (ft_pc x); try discriminate.
  injection H as <-. now apply inv_ghost_only.
Qed.

Lemma step_free_inv : forall s t x p s', Inv s -> (t < length (f_thr s))%nat -> get_fthr s t = x ->
  step_free s t x p = Some s' -> Inv s' /\ f_bad s' = f_bad s.
Proof.
  intros s t [th pc op fr] p s' I Hlt Hx H.
  destruct (inv_thr s t _ I Hx) as [Hok Hloc].
  unfold step_free in H. cbn [ft ft_pc ft_op ft_free] in H.
  destruct fr as [|q r]; [discriminate|]. destruct (Z.eqb_spec p q) as [->|]; [|discriminate].
  assert (Hq : wait_of (f_wait s) q = []) by (apply (k_free _ _ _ Hok q); now left).
  injection H as <-. fsimpl. rewrite Hq. split; [|reflexivity].
  by_step s I Hlt Hx; [| | | |exact (v_ocur s I)|now apply oprev_old].
  - intros p v Hv. eapply wait_of_drop_in; exact Hv.
  - right. match goal with |- ?h = false \/ _ => destruct h eqn:Hh end;
      [right; split; [exact Hh|exact (fun c => c)]|now left].
  - (* only the queue of frees differs *)
    constructor; unfold cntT, cntP, quiet, thr_loc, wf_pc in *; cbn [ft ft_pc ft_op] in *; auto; lia.
  - eapply thr_ok_sub; [exact Hok|apply incl_refl|apply incl_refl|apply le_n|apply incl_tl, incl_refl|
                        exact (k_pc _ _ _ Hok)|now left].
Qed.

Lemma step_call_inv : forall s t x o arg s', Inv s -> (t < length (f_thr s))%nat -> get_fthr s t = x ->
  ft_pc x = PIdle -> step_call s t x o arg = Some s' -> Inv s'.
Proof.
  intros s t [[reg lsq ls qs prev cur] pc op fr] o arg s' I Hlt Hx Hpc H. cbn [ft_pc] in Hpc. subst pc.
  destruct (inv_thr s t _ I Hx) as [Hok (Hwf & Hqs & Hpr & Hcall)]. cnt_unfold_in Hqs.
  unfold step_call in H. cbn [ft t_reg] in H.
  destruct o; destruct reg; try discriminate; injection H as <-.
  (* register, retire *)
  1,2,4: by_repc s I Hlt Hx; [apply le_n|
           apply incl_refl| |loc_tac|exact Logic.I|discriminate].
  1,2: now left.
  1: right; split; [reflexivity|auto].
  (* quiescent, pause, exit: [t] leaves the waiting sets *)
  all: by_step s I Hlt Hx; [| |loc_tac| |exact (v_ocur s I)|
                         now apply oprev_old].
  all: try (intros p v Hv; now apply passed_wait in Hv).
  all: try (left; intros p Hv; now apply passed_wait in Hv).
  all: (eapply thr_ok_sub; [exact Hok|apply incl_refl|apply incl_refl|apply le_n|apply incl_refl|
                            exact Logic.I|discriminate]).
Qed.

Lemma step_ret_inv : forall s t x o s', Inv s -> (t < length (f_thr s))%nat -> get_fthr s t = x ->
  ft_pc x = PRet -> step_ret s t x o = Some s' -> Inv s'.
Proof.
  intros s t [[reg lsq ls qs prev cur] pc op fr] o s' I Hlt Hx Hpc H. cbn [ft_pc] in Hpc. subst pc.
  destruct (inv_thr s t _ I Hx) as [Hok (Hwf & Hqs & Hpr & Hcall)].
  cnt_unfold_in Hwf. cnt_unfold_in Hqs. cnt_unfold_in Hpr.
  unfold step_ret in H. cbn [ft ft_op] in H.
  destruct (fop_eqb o op) eqn:Ho; [|discriminate]. apply fop_eqb_eq in Ho. subst o.
  injection H as <-.
  destruct op; destruct reg; try discriminate Hwf.
  (* register returns with quiescent_states_since_epoch_change = 0 *)
  1,2: pose proof (Hpr eq_refl eq_refl); subst qs.
  all: by_repc s I Hlt Hx; [apply le_n|
           apply incl_app_nil|cnt_unfold; auto|loc_tac|exact Logic.I|discriminate].
Qed.

Lemma step_reg_inv : forall s t x e s', Inv s -> (t < length (f_thr s))%nat -> get_fthr s t = x ->
  ft_free x = [] -> step_reg s t x e = Some s' -> Inv s'.
Proof.
  intros s t [[reg lsq ls qs prev cur] pc op fr] e s' I Hlt Hx Hfr H. cbn [ft_free] in Hfr. subst fr.
  destruct (inv_thr s t _ I Hx) as [Hok (Hwf & Hqs & Hpr & Hcall)]. cnt_unfold_in Hwf. cnt_unfold_in Hqs.
  unfold step_reg in H. cbn [ft_pc] in H.
  destruct pc; try discriminate; destruct e; try discriminate.
  all: destruct op; try discriminate Hwf; destruct reg; try discriminate Hwf.
  (* PRegLoad *)
  1,2: destruct (sees s w); [|discriminate]; injection H as <-.
  (* PRegCas *)
  3,4: cbv zeta in H;
       match type of H with (if ?c then _ else _) = _ => destruct c; [|discriminate] end;
       destruct (sw_eqb old (f_w s)) eqn:Heq;
       [apply sw_eqb_eq in Heq; subst old;
        destruct ((0 <? w_P (f_w s)) || (w_T (f_w s) =? 0)) eqn:Hboth|];
       injection H as <-.
  (* PRegSpin *)
  9-12: try (injection H as <-; exact I).
  9,10: destruct (sees s w); [|discriminate];
        destruct (Z.eqb_spec (w_ep (f_w s)) old_epoch) as [Hoe|Hoe]; cbn [negb] in H;
        injection H as <-; try exact I.
  all: by_repc s I Hlt Hx; [first [apply le_n|now apply lsk_seen]|apply incl_refl|now left|loc_tac|exact Logic.I|discriminate].
  (* left: [l_P] when the spin ends - the spinning thread was counted in P iff the epoch had moved on *)
  all: destruct (Z.eqb_spec old_epoch (w_ep (f_w s))); cbn [negb b2z]; [congruence|lia].
Qed.
