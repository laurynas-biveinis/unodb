(** Invariant preservation: on_next_epoch_deallocate, quiescent up to the
    fetch_sub, unregister_thread, orphan_pending_requests. *)
From Coq Require Import List ZArith Bool Lia Arith.
From Unodb Require Import Qsbr.QsbrModel Qsbr.QsbrBase Qsbr.QsbrInv Qsbr.QsbrFine Qsbr.QsbrFineBase
  Qsbr.QsbrFineInv Qsbr.QsbrFineFrame.
Import ListNotations.
Local Open Scope Z_scope.

(** the retire observation: the new request waits for the other threads that may hold
    references.  It must not be pending already: its waiting set is overwritten. *)
Lemma step_retire_obs_inv : forall s t x p u p' s', Inv s -> (t < length (f_thr s))%nat ->
  get_fthr s t = x -> ft_pc x = PRetObs p -> ~ In p' (fpending s) ->
  step_retire s t x (FRetire u p') = Some s' -> Inv s'.
Proof.
  intros s t [[reg lsq ls qs prev cur] pc op fr] p u p' s' I Hlt Hx Hpc Hnp H. cbn [ft_pc] in Hpc. subst pc.
  destruct (inv_thr s t _ I Hx) as [Hok (Hwf & Hqs & Hpr & Hcall)]. cnt_unfold_in Hwf. cnt_unfold_in Hqs.
  unfold step_retire in H. cbn [ft_pc] in H.
  destruct (Z.eqb_spec p' p) as [->|]; [|discriminate].
  destruct op; try discriminate Hwf; destruct reg; try discriminate Hwf.
  injection H as <-.
  match goal with |- Inv ?S => set (s1 := S) end.
  set (keep := fun q : ptr => q <> p).
  assert (Hw1 : forall q, FW s1 q = if p =? q then active_others (f_thr s) t 0 else FW s q) by reflexivity.
  assert (Hkeep : forall q, In q (fpending s) -> keep q) by (intros q Hq ->; contradiction).
  assert (SS : StepSame s s1 t keep).
  { eapply mk_same; [exact Hlt|reflexivity|reflexivity|..]; rewrite ?Hx.
    - intros q Hq v Hv. rewrite Hw1 in Hv. destruct (Z.eqb_spec p q); [now elim Hq|exact Hv].
    - right. right. split; [reflexivity|auto].
    - discriminate. }
  eapply inv_same with (t := t) (keep := keep);
    [exact I|exact Hlt|reflexivity|exact SS|exact Hkeep|rewrite Hx; unfold s1; loc_tac| | |].
  - eapply thr_ok_sub; [eapply same_thr_ok; [exact SS| |exact Hok]|..];
      try apply incl_refl; try apply le_n; try discriminate.
    + intros q Hq. apply Hkeep. apply (in_fpending_thr s t). now rewrite Hx.
    + change (~ In t (FW s1 p) /\ forall v, In v (FW s1 p) -> hr s1 v = true).
      rewrite Hw1, Z.eqb_refl. split.
      * intros Hin. apply in_active_others in Hin. tauto.
      * intros v Hv. apply in_active_others in Hv. destruct Hv as [Hne [j [-> Hh]]].
        unfold hr. now rewrite (ss_oth _ _ _ _ SS).
  - intros q Hq. split; [now apply Hkeep, in_fpending_ocur|now apply (v_ocur s I)].
  - intros q Hq. split; [now apply Hkeep, in_fpending_oprev|now apply oprev_old].
Qed.

Lemma step_retire_load_inv : forall s t x p u w s', Inv s -> (t < length (f_thr s))%nat ->
  get_fthr s t = x -> ft_pc x = PRetLoad p -> ft_free x = [] ->
  step_retire s t x (FLoad u w) = Some s' -> Inv s'.
Proof.
  intros s t [[reg lsq ls qs prev cur] pc op fr] p u w s' I Hlt Hx Hpc Hfr H.
  cbn [ft_pc ft_free] in Hpc, Hfr. subst pc fr.
  destruct (inv_thr s t _ I Hx) as [Hok (Hwf & Hqs & Hpr & Hcall)]. cnt_unfold_in Hwf. cnt_unfold_in Hqs.
  pose proof (sole_thr s t _ I Hx) as Hsole.
  assert (Hp : reqs_ok s t 0 [p]) by (intros q [<-|[]]; exact (k_pc _ _ _ Hok)).
  unfold step_retire in H. cbn [ft_pc ft t_ls] in H.
  destruct op; try discriminate Hwf; destruct reg; try discriminate Hwf.
  destruct (sees s w); [|discriminate].
  destruct (sw_stm (f_w s)) eqn:Hstm; [|destruct (Z.eqb_spec ls (w_ep (f_w s))) as [->|Hls]; cbn [negb] in H].
  (* 1: single-thread mode; 2: the epoch is the one seen; 3: a new epoch is observed first *)
  1: adv_seen_in H Hok; [|intros _; now apply Hsole|apply reqs_ok_nil].
  3: adv_seen_in H Hok; [|discriminate|exact Hp].
  all: injection H as <-.
  all: by_step_thr s I Hlt Hx; [right; split; [reflexivity|exact (fun c => c)]|loc_tac|].
  all: apply thr_ok_now; [reflexivity| | | |exact Logic.I|discriminate]; fsimpl.
  - exact Hcr.
  - exact Hpv.
  - (* single thread mode: the new request is executed at once *)
    intros q Hq. cbn [app] in Hq. apply in_app_or in Hq. destruct Hq as [Hq|Hq]; [now apply Hf|].
    apply Z.ltb_lt in Hstm. apply (sole_reqs s t 0 [p] I); [exact Hstm|now rewrite Hx|exact Hp|exact Hq].
  - apply reqs_ok_app; [exact (thr_ok_cur _ _ _ Hok)|exact Hp].
  - exact (thr_ok_prev _ _ _ Hok).
  - intros q [].
  - exact Hcr.
  - exact Hpv.
  - exact Hf.
Qed.

Lemma step_retire_inv : forall s t x e s', Inv s -> (t < length (f_thr s))%nat -> get_fthr s t = x ->
  ft_free x = [] -> (forall u p, e = FRetire u p -> ~ In p (fpending s)) ->
  step_retire s t x e = Some s' -> Inv s'.
Proof.
  intros s t x e s' I Hlt Hx Hfr Hnew H.
  destruct (ft_pc x) eqn:Hpc; try (unfold step_retire in H; rewrite Hpc in H; discriminate H);
    destruct e; try (unfold step_retire in H; rewrite Hpc in H; discriminate H).
  - eapply step_retire_obs_inv; [exact I|exact Hlt|exact Hx|exact Hpc|exact (Hnew _ _ eq_refl)|exact H].
  - eapply step_retire_load_inv; eauto.
Qed.

Lemma step_q_inv : forall s t x e s', Inv s -> (t < length (f_thr s))%nat -> get_fthr s t = x ->
  ft_pc x = PQLoad -> ft_free x = [] -> step_q s t x e = Some s' -> Inv s'.
Proof.
  intros s t [[reg lsq ls qs prev cur] pc op fr] e s' I Hlt Hx Hpc Hfr H.
  cbn [ft_pc ft_free] in Hpc, Hfr. subst pc fr.
  destruct (inv_thr s t _ I Hx) as [Hok (Hwf & Hqs & Hpr & Hcall)]. cnt_unfold_in Hwf. cnt_unfold_in Hqs.
  assert (HcT : cntT (get_fthr s t) = true) by now rewrite Hx.
  unfold step_q in H. cbn [ft_pc ft] in H.
  destruct e; try discriminate.
  destruct op; try discriminate Hwf; destruct reg; try discriminate Hwf.
  destruct (sees s w); [|discriminate]. cbv zeta in H.
  adv_seen_in H Hok; [|intros Hs; now apply (sole_thr s t _ I Hx)|apply reqs_ok_nil].
  cbn [t_lsq t_qs thr_set_lsq_qs] in H.
  destruct (Z.eqb_spec (w_ep (f_w s)) lsq) as [Hl|Hl]; cbn [negb t_lsq t_qs thr_set_lsq_qs] in H;
    [destruct (Z.eqb_spec qs 0)|change (0 =? 0) with true in H; cbv iota in H].
  all: injection H as <-.
  all: by_step_thr s I Hlt Hx; [now left|loc_tac; zb_tac|].
  all: apply thr_ok_now; [reflexivity|exact Hcr|exact Hpv|exact Hf|exact Logic.I|]; try discriminate.
  (* remove_thread_from_previous_epoch is called with the word just loaded *)
  all: intros Hs; apply (sole_lists s t 0 1 cr pv I); assumption.
Qed.

Lemma orph_next_pc : forall th,
  orph_next th = POLoad OPrev \/ orph_next th = POLoad OCur \/ orph_next th = PRet.
Proof. intros th. unfold orph_next. destruct (t_prev th); auto. destruct (t_cur th); auto. Qed.

(** the load of unregister_thread, and the retry after a failed CAS: decide from the word *)
Lemma unreg_decide_inv : forall s t x u, Inv s -> (t < length (f_thr s))%nat -> get_fthr s t = x ->
  (ft_pc x = PULoad u \/ ft_pc x = PUCas u) -> ft_free x = [] ->
  Inv (set_fthr s t (with_pc x (u_decide (u_with_old u (f_w s))))).
Proof.
  intros s t [[reg lsq ls qs prev cur] pc op fr] u I Hlt Hx Hpc Hfr.
  cbn [ft_pc ft_free] in Hpc, Hfr. subst fr.
  destruct (inv_thr s t _ I Hx) as [Hok (Hwf & Hqs & Hpr & Hcall)].
  pose proof (sole_thr s t _ I Hx) as Hsole.
  destruct Hpc as [-> | ->]; cnt_unfold_in Hwf.
  all: destruct op; try discriminate Hwf; destruct reg; try discriminate Hwf.
  all: unfold u_decide, u_advance, u_remove_old; cbn [u_with_old u_old u_qs u_te u_ecbc].
  all: destruct (Z.eqb_spec (w_P (f_w s)) 0) as [HP0|HP0];
       [|destruct (negb (u_te u =? w_ep (f_w s)) || (u_qs u =? 0)) eqn:Hrm; cbn [andb];
         [destruct ((w_P (f_w s) =? 1) && negb (sw_stm (f_w s) && u_ecbc u))|]].
  all: by_repc s I Hlt Hx; [apply le_n|apply incl_refl|
     now left|loc_tac|exact Logic.I|].
  all: try discriminate.
  all: try (rewrite Hrm; cbn [b2z]; lia).
  all: intros Hs; right; now apply Hsole.
Qed.

(** the successful CAS of unregister_thread; [th1]: the thread object afterwards,
    [f1]: the requests the step executes *)
Lemma unreg_finish : forall s t x u th1 f1, Inv s -> (t < length (f_thr s))%nat -> get_fthr s t = x ->
  ft_pc x = PUCas u -> ft_free x = [] -> u_old u = f_w s ->
  t_reg th1 = false -> 0 <= t_qs th1 -> thr_ok s t (upd x th1 PRet f1) ->
  Inv (set_fthr (set_w s (u_desired u)) t (upd x th1 (orph_next th1) f1)).
Proof.
  intros s t [[reg lsq ls qs prev cur] pc op fr] u [reg1 lsq1 ls1 qs1 prev1 cur1] f1 I Hlt Hx Hpc Hfr Hold
    Hreg1 Hqs1 Hok1.
  cbn [ft_pc ft_free t_reg t_qs] in Hpc, Hfr, Hreg1, Hqs1. subst pc fr reg1.
  destruct (inv_thr s t _ I Hx) as [Hok (Hwf & Hqs & Hpr & Hcall)]. cnt_unfold_in Hwf.
  pose proof (P0_cntP s t I) as HP0c. unfold cp in HP0c. rewrite Hx in HP0c. cnt_unfold_in HP0c.
  unfold u_desired, u_remove_old. rewrite Hold.
  match goal with |- context [orph_next ?th] => destruct (orph_next_pc th) as [Ho|[Ho|Ho]]; rewrite Ho end.
  all: destruct op; try discriminate Hwf; destruct reg; try discriminate Hwf.
  all: destruct (Z.eqb_spec (w_P (f_w s)) 0) as [HP0|HP0];
       [specialize (HP0c HP0)|clear HP0c; destruct (negb (u_te u =? w_ep (f_w s)) || (u_qs u =? 0)) eqn:Hrm].
  all: by_step_thr s I Hlt Hx; [now left|loc_with ltac:(rewrite ?HP0c, ?Hrm)|].
  all: eapply thr_ok_sub; [exact Hok1|apply incl_refl|apply incl_refl|apply le_n|apply incl_refl|
                           exact Logic.I|discriminate].
Qed.

Lemma step_unreg_inv : forall s t x e s', Inv s -> (t < length (f_thr s))%nat -> get_fthr s t = x ->
  ft_free x = [] -> step_unreg s t x e = Some s' -> Inv s'.
Proof.
  intros s t x e s' I Hlt Hx Hfr H. unfold step_unreg in H.
  destruct (ft_pc x) eqn:Hpc; try discriminate; destruct e; try discriminate.
  - destruct (sees s w); [|discriminate]. injection H as <-. apply unreg_decide_inv; auto.
  - cbv zeta in H.
    match type of H with (if ?c then _ else _) = _ => destruct c; [|discriminate] end.
    destruct (sw_eqb (u_old u) (f_w s)) eqn:Heq; [|injection H as <-; apply unreg_decide_inv; auto].
    apply sw_eqb_eq in Heq.
    destruct (inv_thr s t x I Hx) as [Hok (Hwf & Hqs & _)].
    assert (HcT : cntT x = true) by (unfold cntT; now rewrite Hpc).
    unfold wf_pc in Hwf. rewrite Hpc in Hwf. apply andb_prop in Hwf as [_ Hreg]. apply negb_true_iff in Hreg.
    destruct (w_P (u_old u) =? 0).
    + (* an epoch change is in progress: the thread object is left as it is *)
      injection H as <-. apply unreg_finish; auto.
      eapply thr_ok_sub; [exact Hok|apply incl_refl|apply incl_refl|apply le_n|apply incl_app_nil|
                          exact Logic.I|discriminate].
    + rewrite Heq in H.
      adv_seen_in H Hok; [|intros Hs; now apply (sole_thr s t x I Hx)|apply reqs_ok_nil].
      injection H as <-. apply unreg_finish; auto.
      apply thr_ok_now; [reflexivity|exact Hcr|exact Hpv|cbn [upd ft_free]; now rewrite Hfr|
                         exact Logic.I|discriminate].
Qed.

Lemma ocur_push : forall s t a v, Inv s -> reqs_ok s t 0 v ->
  forall p, In p (ol_reqs ((a, v) :: f_ocur s)) -> fcls s 0 p.
Proof.
  intros s t a v I Hv p Hp. rewrite ol_reqs_cons in Hp. apply in_app_or in Hp.
  destruct Hp as [Hp|Hp]; [apply (Hv p Hp)|now apply (v_ocur s I)].
Qed.

Lemma oprev_push : forall s t a v (c : Prop), Inv s -> reqs_ok s t 1 v ->
  forall p, In p (ol_reqs ((a, v) :: f_oprev s)) -> fcls s 0 p /\ (fcls s 1 p \/ late s \/ c).
Proof.
  intros s t a v c I Hv p Hp. rewrite ol_reqs_cons in Hp. apply in_app_or in Hp.
  destruct Hp as [Hp|Hp]; [|now apply oprev_old].
  destruct (Hv p Hp) as [_ H1]. split; [now apply fcls_S|now left].
Qed.

Lemma step_orph_inv : forall s t x e s', Inv s -> (t < length (f_thr s))%nat -> get_fthr s t = x ->
  ft_free x = [] -> step_orph s t x e = Some s' -> Inv s'.
Proof.
  intros s t [[reg lsq ls qs prev cur] pc op fr] e s' I Hlt Hx Hfr H. cbn [ft_free] in Hfr. subst fr.
  destruct (inv_thr s t _ I Hx) as [Hok (Hwf & Hqs & Hpr & Hcall)]. cnt_unfold_in Hwf. cnt_unfold_in Hqs.
  pose proof (thr_ok_cur _ _ _ Hok) as Hc. pose proof (thr_ok_prev _ _ _ Hok) as Hp.
  unfold step_orph in H. cbn [ft_pc ft] in H.
  destruct pc; try discriminate; destruct e; try discriminate.
  all: destruct op; try discriminate Hwf; destruct reg; try discriminate Hwf.
  all: match type of H with (if ?c then _ else _) = _ => destruct c; [|discriminate] end.
  3,4: destruct (next =? ol_head (get_ol s l)).
  (* 1, 2: the loads at [POLoad]; 3-6: the CAS at [POCas], succeeding (3, 5) or failing (4, 6) *)
  1,2,4,6: injection H as <-; by_repc s I Hlt Hx; [apply le_n|apply incl_refl|
     now left|loc_tac|exact Logic.I|discriminate].
  (* the push: the vector becomes a node of the orphan list *)
  all: match type of H with context [orph_next ?th] => destruct (orph_next_pc th) as [Ho|[Ho|Ho]]; rewrite Ho in H end.
  all: injection H as <-; destruct l.
  all: by_step s I Hlt Hx; [intros p v Hv; exact Hv|right; left; reflexivity|loc_tac|
     eapply thr_ok_sub; [exact Hok|first [apply incl_refl|apply incl_nil_l]|
                         first [apply incl_refl|apply incl_nil_l]|apply le_n|apply incl_refl|
                         exact Logic.I|discriminate]|
     first [exact (v_ocur s I)|exact (ocur_push s t _ _ I Hc)]|
     first [now apply oprev_old|exact (oprev_push s t _ _ _ I Hp)]].
Qed.
