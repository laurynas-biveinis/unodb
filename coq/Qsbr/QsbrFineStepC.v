(** Invariant preservation: remove_thread_from_previous_epoch and change_epoch. *)
From Coq Require Import List ZArith Bool Lia Arith.
From Unodb Require Import Qsbr.QsbrModel Qsbr.QsbrBase Qsbr.QsbrInv Qsbr.QsbrFine Qsbr.QsbrFineBase
  Qsbr.QsbrFineInv Qsbr.QsbrFineFrame.
Import ListNotations.
Local Open Scope Z_scope.

Lemma step_fsub_inv : forall s t x c cge e s', Inv s -> (t < length (f_thr s))%nat -> get_fthr s t = x ->
  ft_pc x = PRmFsub c cge -> ft_free x = [] -> step_epoch s t x e = Some s' -> Inv s'.
Proof.
  intros s t [[reg lsq ls qs prev cur] pc op fr] c cge e s' I Hlt Hx Hpc Hfr H.
  cbn [ft_pc ft_free] in Hpc, Hfr. subst pc fr.
  destruct (inv_thr s t _ I Hx) as [Hok (Hwf & Hqs & Hpr & Hcall)].
  cnt_unfold_in Hwf. cnt_unfold_in Hqs. cnt_unfold_in Hcall.
  assert (HT1 : 1 <= w_T (f_w s)).
  { rewrite (v_T s I). apply fcnt_pos with (u := t); [reflexivity|]. fold (get_fthr s t). now rewrite Hx. }
  unfold step_epoch in H. cbn [ft_pc] in H.
  destruct e; try discriminate.
  destruct (sees s old); [|discriminate].
  destruct (Z.ltb_spec 0 (w_P (f_w s))) as [HP0|HP0]; [|discriminate]. cbn [andb] in H.
  destruct (Z.ltb_spec 1 (w_P (f_w s))) as [HP1|HP1].
  - (* not the last one: return to the caller *)
    unfold rm_return in H. cbn [ft t_lsq t_qs] in H.
    destruct c as [st|u];
      [destruct Hcall as [-> [-> ->]]; rewrite Z.eqb_refl in H
      |destruct Hcall as [-> Hue]; rewrite Hue, Z.eqb_refl in H].
    all: cbn [negb] in H; destruct op; try discriminate Hwf; destruct reg; try discriminate Hwf.
    all: injection H as <-.
    all: by_repc s I Hlt Hx; [apply le_n|apply incl_app_nil|
       now left|loc_tac; zb_tac|exact Logic.I|discriminate].
  - (* the last one: start the epoch change *)
    injection H as <-.
    by_repc s I Hlt Hx; [apply le_n|apply incl_refl|
       left|loc_tac|exact Logic.I|intros Hs; left; exact Hs].
    + destruct c; destruct op; try discriminate Hwf; destruct reg; try discriminate Hwf; reflexivity.
    + unfold sw_stm. destruct (Z.ltb_spec (w_T (f_w s)) 2); [|discriminate].
      intros _. right. split; [lia|reflexivity].
Qed.

Lemma chg_facts : forall s t x, Inv s -> get_fthr s t = x -> chg_pc (ft_pc x) = true ->
  holds_refs x = false /\ w_P (f_w s) = 0.
Proof.
  intros s t x I <- Hc. split; [apply chg_hr_false; [apply (v_loc s I t)|exact Hc]|apply (v_chg s I t Hc)].
Qed.

Lemma step_xprev_inv : forall s t x c cge stm e s', Inv s -> (t < length (f_thr s))%nat ->
  get_fthr s t = x -> ft_pc x = PChXPrev c cge stm -> ft_free x = [] ->
  step_epoch s t x e = Some s' -> Inv s'.
Proof.
  intros s t [th pc op fr] c cge stm e s' I Hlt Hx Hpc Hfr H. cbn [ft_pc ft_free] in Hpc, Hfr. subst pc fr.
  destruct (inv_thr s t _ I Hx) as [Hok (Hwf & Hqs & Hpr & Hcall)]. cnt_unfold_in Hwf. cnt_unfold_in Hcall.
  destruct (chg_facts s t _ I Hx eq_refl) as [Hhr HP0].
  assert (Hnl : ~ late s) by (apply (not_late s t I); now rewrite Hx).
  unfold step_epoch in H. cbn [ft_pc] in H.
  destruct e; try discriminate. destruct l; try discriminate.
  destruct (old =? ol_head (f_oprev s)); [|discriminate].
  injection H as <-.
  by_step s I Hlt Hx; [intros p v Hv; exact Hv|right; left; exact Hhr|loc_tac| |
     exact (v_ocur s I)|intros p []].
  eapply thr_ok_sub; [exact Hok|apply incl_refl|apply incl_refl|apply le_n|apply incl_refl| |
                      intros Hs; left; exact Hs].
  (* the previous-interval orphans taken: class 1 with nobody counted *)
  intros q Hq. destruct (v_oprev s I q Hq) as [_ [H1|Hl]]; [|contradiction]. now apply cls1_P0.
Qed.

Lemma step_xcur_inv : forall s t x c cge stm tp e s', Inv s -> (t < length (f_thr s))%nat ->
  get_fthr s t = x -> ft_pc x = PChXCur c cge stm tp -> ft_free x = [] ->
  step_epoch s t x e = Some s' -> Inv s'.
Proof.
  intros s t [th pc op fr] c cge stm tp e s' I Hlt Hx Hpc Hfr H. cbn [ft_pc ft_free] in Hpc, Hfr. subst pc fr.
  destruct (inv_thr s t _ I Hx) as [[Hc Hp _ Hpc Hst] (Hwf & Hqs & Hpr & Hcall)].
  cnt_unfold_in Hwf. cnt_unfold_in Hcall.
  destruct (chg_facts s t _ I Hx eq_refl) as [Hhr HP0].
  pose proof (sole_chg_empty s t) as Hsole. rewrite Hx in Hsole.
  unfold step_epoch in H. cbn [ft_pc] in H.
  destruct e; try discriminate. destruct l; try discriminate.
  destruct (old =? ol_head (f_ocur s)); [|discriminate].
  destruct stm; injection H as <-.
  all: by_step s I Hlt Hx; [intros p v Hv; exact Hv|right; left; exact Hhr|loc_tac| |
     intros p []|now apply oprev_old].
  all: constructor; [exact Hc|exact Hp| | |exact Hst]; fsimpl; cbn [pc_ok app].
  - (* single thread mode: both taken lists are executed *)
    intros q Hq. apply in_app_or in Hq. destruct Hq as [Hq|Hq]; [exact (Hpc q Hq)|].
    apply (Hsole q I eq_refl), (v_ocur s I q Hq).
  - exact Logic.I.
  - exact Hpc.
  - exact (v_ocur s I).
Qed.

Lemma step_move_inv : forall s t x c cge tc e s', Inv s -> (t < length (f_thr s))%nat ->
  get_fthr s t = x -> ft_pc x = PChMove c cge tc -> ft_free x = [] ->
  step_epoch s t x e = Some s' -> Inv s'.
Proof.
  intros s t [th pc op fr] c cge tc e s' I Hlt Hx Hpc Hfr H. cbn [ft_pc ft_free] in Hpc, Hfr. subst pc fr.
  destruct (inv_thr s t _ I Hx) as [Hok (Hwf & Hqs & Hpr & Hcall)]. cnt_unfold_in Hwf. cnt_unfold_in Hcall.
  destruct (chg_facts s t _ I Hx eq_refl) as [Hhr HP0].
  unfold step_epoch in H. cbn [ft_pc] in H.
  destruct e; try discriminate.
  destruct ((expected =? 0) && (desired =? ol_head tc)); [|discriminate].
  destruct (f_oprev s) as [|[a v] l] eqn:Hop; injection H as <-.
  - (* the taken current-interval orphans become the previous-interval list *)
    by_step s I Hlt Hx; [intros p v Hv; exact Hv|right; left; exact Hhr|loc_tac| |
       exact (v_ocur s I)|intros q Hq; split; [exact (k_pc _ _ _ Hok q Hq)|right; right; reflexivity]].
    eapply thr_ok_sub; [exact Hok|apply incl_refl|apply incl_refl|apply le_n|apply incl_refl|
                        exact Logic.I|intros Hs; left; exact Hs].
  - by_repc s I Hlt Hx; [apply le_n|apply incl_refl|
       left; exact Hhr|loc_tac|exact (k_pc _ _ _ Hok)|intros Hs; left; exact Hs].
Qed.

Lemma step_append_inv : forall s t x c cge tc h e s', Inv s -> (t < length (f_thr s))%nat ->
  get_fthr s t = x -> ft_pc x = PChAppend c cge tc h -> ft_free x = [] ->
  step_epoch s t x e = Some s' -> Inv s'.
Proof.
  intros s t [th pc op fr] c cge tc h e s' I Hlt Hx Hpc Hfr H. cbn [ft_pc ft_free] in Hpc, Hfr. subst pc fr.
  destruct (inv_thr s t _ I Hx) as [Hok (Hwf & Hqs & Hpr & Hcall)]. cnt_unfold_in Hwf. cnt_unfold_in Hcall.
  destruct (chg_facts s t _ I Hx eq_refl) as [Hhr HP0].
  unfold step_epoch in H. cbn [ft_pc] in H.
  destruct e; try discriminate.
  destruct (taken =? ol_head tc); [|discriminate].
  destruct (append_from h (f_oprev s) tc) as [l|] eqn:Hap; [|discriminate].
  apply append_from_eq in Hap. subst l.
  injection H as <-.
  by_step s I Hlt Hx; [intros p v Hv; exact Hv|right; left; exact Hhr|loc_tac| |
     exact (v_ocur s I)|].
  - eapply thr_ok_sub; [exact Hok|apply incl_refl|apply incl_refl|apply le_n|apply incl_refl|
                        exact Logic.I|intros Hs; left; exact Hs].
  - intros q Hq. rewrite ol_reqs_app in Hq. apply in_app_or in Hq. destruct Hq as [Hq|Hq].
    + now apply oprev_old.
    + split; [exact (k_pc _ _ _ Hok q Hq)|right; right; reflexivity].
Qed.

(** the load of the word before the epoch CAS, and the retry after a failed CAS *)
Lemma chg_reload_inv : forall s t x c cge, Inv s -> (t < length (f_thr s))%nat -> get_fthr s t = x ->
  (ft_pc x = PChLoad c cge \/ exists old, ft_pc x = PChCas c cge old) -> ft_free x = [] ->
  Inv (set_fthr s t (with_pc x (PChCas c cge (f_w s)))).
Proof.
  intros s t [th pc op fr] c cge I Hlt Hx Hpc Hfr. cbn [ft_pc ft_free] in Hpc, Hfr. subst fr.
  destruct (inv_thr s t _ I Hx) as [Hok (Hwf & Hqs & Hpr & Hcall)].
  destruct Hpc as [->|[old ->]]; cnt_unfold_in Hwf; cnt_unfold_in Hcall.
  all: destruct (chg_facts s t _ I Hx eq_refl) as [Hhr HP0].
  all: by_repc s I Hlt Hx; [apply le_n|apply incl_refl|
       left; exact Hhr|loc_tac|exact Logic.I|intros Hs; left; exact Hs].
Qed.

Lemma step_chload_inv : forall s t x c cge e s', Inv s -> (t < length (f_thr s))%nat ->
  get_fthr s t = x -> ft_pc x = PChLoad c cge -> ft_free x = [] ->
  step_epoch s t x e = Some s' -> Inv s'.
Proof.
  intros s t x c cge e s' I Hlt Hx Hpc Hfr H. unfold step_epoch in H. rewrite Hpc in H.
  destruct e; try discriminate. destruct (sees s w); [|discriminate].
  injection H as <-. apply chg_reload_inv; auto.
Qed.

(** the counting facts about the record after the epoch CAS: by computation *)
Local Ltac adv_loc := cnt_unfold; rewrite ?Z.eqb_refl; repeat split; auto; try lia.

Lemma step_chcas_inv : forall s t x c cge old e s', Inv s -> (t < length (f_thr s))%nat ->
  get_fthr s t = x -> ft_pc x = PChCas c cge old -> ft_free x = [] ->
  step_epoch s t x e = Some s' -> Inv s'.
Proof.
  intros s t [[reg lsq ls qs prev cur] pc op fr] c cge old e s' I Hlt Hx Hpc Hfr H.
  cbn [ft_pc ft_free] in Hpc, Hfr. subst pc fr.
  (* a failed CAS goes back to the load ([Hfail]).  A successful one is [inv_adv]: on return the caller
     runs [exec_prev] for the new epoch, and [exec_prev_ok] at classes 0 / 1 of the old state gives
     what [inv_adv] asks - the new previous-interval list had class 0, what is freed had class 1.
     The cases are the caller: quiescent(), or unregister, which first catches up with the old epoch
     ([adv_seen_in]) *)
  pose proof (chg_reload_inv s t _ c cge I Hlt Hx (or_intror (ex_intro _ old eq_refl)) eq_refl) as Hfail.
  destruct (inv_thr s t _ I Hx) as [Hok (Hwf & Hqs & Hpr & Hcall)].
  cnt_unfold_in Hwf. cnt_unfold_in Hqs. cnt_unfold_in Hcall.
  pose proof (ep_adv_neq _ (v_ep s I)) as Hadv. unfold fE in Hadv.
  pose proof (thr_ok_cur _ _ _ Hok) as Hc. pose proof (thr_ok_prev _ _ _ Hok) as Hp.
  pose proof (k_stm _ _ _ Hok) as Hst. cnt_unfold_in Hst.
  unfold step_epoch in H. cbn [ft_pc] in H.
  destruct e; try discriminate. cbv zeta in H.
  match type of H with (if ?c then _ else _) = _ => destruct c; [|discriminate] end.
  destruct (sw_eqb old (f_w s)) eqn:Heq; [|injection H as <-; exact Hfail].
  apply sw_eqb_eq in Heq. subst old. clear Hfail.
  unfold rm_return in H. cbn [ft t_lsq t_qs thr_set_lsq_qs] in H.
  destruct c as [st|u].
  - (* quiescent() *) destruct Hcall as [-> [-> ->]].
    destruct (Z.eqb_spec (ep_adv (w_ep (f_w s))) (w_ep (f_w s))) as [|_]; [congruence|]. cbn [negb] in H.
    match type of H with context [exec_prev ?a ?m ?d ?n] =>
      destruct (exec_prev a m d n) as [th' f] eqn:He end.
    eapply (exec_prev_ok s t 0 1) in He as (pv & -> & Hpv & Hf);
      [|exact Hc|exact Hp|intros Hs q Hq; apply (fcls_le s 1 2); [lia|apply Hst; auto using in_or_app]].
    destruct op; try discriminate Hwf; destruct reg; try discriminate Hwf.
    injection H as <-.
    eapply inv_adv with (s := s);
      [exact I|exact Hlt|exact Hx|reflexivity|reflexivity|adv_loc|reflexivity|adv_loc|reflexivity|
       apply reqs_ok_nil|unfold lsk; fsimpl; rewrite Z.eqb_refl; exact Hpv|exact Hf].
  - (* unregister *) destruct Hcall as [-> Hue]. rewrite Hue in H.
    destruct (Z.eqb_spec (ep_adv (w_ep (f_w s))) (w_ep (f_w s))) as [|_]; [congruence|]. cbn [negb] in H.
    adv_seen_in H Hok; [|exact Hst|apply reqs_ok_nil].
    match type of H with context [exec_prev ?a ?m ?d ?n] =>
      destruct (exec_prev a m d n) as [th2 f2] eqn:He end.
    eapply (exec_prev_ok s t 0 1) in He as (pv2 & -> & Hpv2 & Hf2); [|exact Hcr|exact Hpv|].
    2: { intros Hs q Hq. apply (fcls_le s 1 2); [lia|].
         destruct (Hall Hs q) as [H2|[]]; auto using in_or_app. }
    destruct op; try discriminate Hwf; destruct reg; try discriminate Hwf.
    all: injection H as <-.
    all: eapply inv_adv with (s := s);
      [exact I|exact Hlt|exact Hx|reflexivity|reflexivity|adv_loc|reflexivity|adv_loc|reflexivity|
       apply reqs_ok_nil|unfold lsk; fsimpl; rewrite Z.eqb_refl; exact Hpv2|].
    all: intros q Hq; fsimpl_in Hq; cbn [app] in Hq; apply in_app_or in Hq; destruct Hq as [Hq|Hq];
      [apply (fcls_le s 1 2); [lia|now apply Hf]|now apply Hf2].
Qed.

Lemma step_epoch_inv : forall s t x e s', Inv s -> (t < length (f_thr s))%nat -> get_fthr s t = x ->
  ft_free x = [] -> step_epoch s t x e = Some s' -> Inv s'.
Proof.
  intros s t x e s' I Hlt Hx Hfr H.
  destruct (ft_pc x) eqn:Hpc; try (unfold step_epoch in H; rewrite Hpc in H; discriminate H).
  - eapply step_fsub_inv; eauto.
  - eapply step_xprev_inv; eauto.
  - eapply step_xcur_inv; eauto.
  - eapply step_move_inv; eauto.
  - eapply step_append_inv; eauto.
  - eapply step_chload_inv; eauto.
  - eapply step_chcas_inv; eauto.
Qed.
