(** Structural invariant of the QSBR model (counts, epochs, thread records). *)
From Coq Require Import List ZArith Bool Lia.
From Unodb Require Import Qsbr.QsbrModel Qsbr.QsbrBase.
Import ListNotations.
Local Open Scope Z_scope.

(** thread has not yet passed a quiescent state in epoch [e] *)
Definition unq (e : Z) (x : thr) : bool := negb (t_lsq x =? e) || (t_qs x =? 0).
Definition unqreg (e : Z) (x : thr) : bool := t_reg x && unq e x.

Lemma unqreg_thr0 : forall e, unqreg e thr0 = false.
Proof. reflexivity. Qed.

Lemma unqreg_reg : forall e x, unqreg e x = true -> t_reg x = true.
Proof. intros e x H. apply andb_prop in H. tauto. Qed.

Lemma unqreg_fields : forall e x y, t_reg x = t_reg y -> t_lsq x = t_lsq y -> t_qs x = t_qs y ->
  unqreg e x = unqreg e y.
Proof. intros e x y H1 H2 H3. unfold unqreg, unq. now rewrite H1, H2, H3. Qed.

Lemma unq_passed : forall e x, t_lsq x = e -> 1 <= t_qs x -> unq e x = false.
Proof.
  intros e x H1 H2. unfold unq. rewrite H1, Z.eqb_refl. destruct (Z.eqb_spec (t_qs x) 0); [lia|reflexivity].
Qed.

Lemma unq_fresh : forall e x, t_qs x = 0 -> unq e x = true.
Proof. intros e x H. unfold unq. rewrite H. apply orb_true_r. Qed.

Lemma cnt_unq_le : forall e l, cnt (unqreg e) l <= cnt t_reg l.
Proof. intros e l. apply cnt_le_impl, unqreg_reg. Qed.

Lemma ep_adv_range : forall e, 0 <= ep_adv e < 4.
Proof. intros e. apply Z.mod_pos_bound. lia. Qed.

Lemma ep_adv_neq : forall e, 0 <= e < 4 -> ep_adv e <> e.
Proof. intros e He. unfold ep_adv. Z.div_mod_to_equations. lia. Qed.

(** [a], [q]: the epoch of a thread's quiescent-state record and its count; shared by [unq] and
    the fine model's [unqU] *)
Lemma unq_adv : forall a q e, 0 <= e < 4 ->
  negb (a =? e) || (q =? 0) = false -> negb (a =? ep_adv e) || (q =? 0) = true.
Proof.
  intros a q e He H. apply orb_false_elim in H as [H _]. apply negb_false_iff, Z.eqb_eq in H. subst a.
  destruct (Z.eqb_spec e (ep_adv e)) as [Heq|]; [|reflexivity]. now destruct (ep_adv_neq e He).
Qed.

Lemma unq_next : forall e x, 0 <= e < 4 -> unq e x = false -> unq (ep_adv e) x = true.
Proof. intros e x. apply unq_adv. Qed.

Lemma quiesced_next : forall e x, 0 <= e < 4 -> t_reg x = true -> unqreg e x = false ->
  unq (ep_adv e) x = true.
Proof. intros e x He Hr Hu. apply unq_next; [exact He|]. unfold unqreg in Hu. now rewrite Hr in Hu. Qed.

(** the thread object has observed epoch [e], or the one before [e] and has not quiesced in [e] *)
Definition ls_ok (e : Z) (x : thr) : Prop :=
  t_ls x = e \/ (ep_adv (t_ls x) = e /\ unq e x = true).

Record Inv1 (s : qstate) : Prop := {
  i_ep : 0 <= q_ep s < 4;
  i_T : q_T s = cnt t_reg (q_thr s);
  i_P : q_P s = cnt (unqreg (q_ep s)) (q_thr s);
  i_P1 : 1 <= q_T s -> 1 <= q_P s;
  i_qs : forall u, 0 <= t_qs (get_thr s u);
  i_unreg : forall u, t_reg (get_thr s u) = false -> lists (get_thr s u) = [];
  i_ls : forall u, t_reg (get_thr s u) = true -> ls_ok (q_ep s) (get_thr s u);
  (* the last thread to leave runs in single-thread mode and executes the orphans too *)
  i_T0 : q_T s = 0 -> q_oprev s = [] /\ q_ocur s = []
}.

Lemma inv1_init : forall n, Inv1 (qinit n).
Proof.
  intros n.
  assert (Hc : forall f, f thr0 = false -> cnt f (q_thr (qinit n)) = 0).
  { intros f Hf. apply cnt_zero_iff. intros u _. change (f (get_thr (qinit n) u) = false).
    now rewrite get_thr_init. }
  constructor; try (intros u; rewrite get_thr_init); cbn [qinit q_ep q_T q_P q_oprev q_ocur];
    try rewrite Hc; try reflexivity; try lia; try discriminate. auto.
Qed.

Lemma inv1_ghost : forall s w, Inv1 s -> Inv1 (with_ghost s w).
Proof. intros s w []. constructor; assumption. Qed.

Lemma reg_TP_pos : forall s t, Inv1 s -> t_reg (get_thr s t) = true -> 1 <= q_T s /\ 1 <= q_P s.
Proof.
  intros s t I Hr. enough (1 <= q_T s) by (split; [assumption|now apply (i_P1 s I)]).
  pose proof (cnt_set_nth t_reg (q_thr s) t thr0 (reg_lt_length s t Hr)) as Hc.
  fold (get_thr s t) in Hc. rewrite Hr in Hc. cbn [b2z thr0 t_reg] in Hc.
  pose proof (cnt_nonneg t_reg (set_nth_thr t thr0 (q_thr s))). rewrite (i_T s I). lia.
Qed.

Lemma P_le_T : forall s, Inv1 s -> 0 <= q_P s <= q_T s.
Proof. intros s I. rewrite (i_P s I), (i_T s I). split; [apply cnt_nonneg|apply cnt_unq_le]. Qed.

Lemma only_unq : forall s t, Inv1 s -> q_P s = 1 -> unqreg (q_ep s) (get_thr s t) = true ->
  forall u, u <> t -> unqreg (q_ep s) (get_thr s u) = false.
Proof.
  intros s t I HP Hu. apply cnt_one_unique; [now rewrite <- (i_P s I)| |exact Hu|reflexivity].
  apply reg_lt_length. now apply unqreg_reg in Hu.
Qed.

Lemma only_reg : forall s t, Inv1 s -> q_T s = 1 -> t_reg (get_thr s t) = true ->
  forall u, u <> t -> t_reg (get_thr s u) = false.
Proof.
  intros s t I HT Hr. apply cnt_one_unique; [now rewrite <- (i_T s I)| |exact Hr|reflexivity].
  now apply reg_lt_length.
Qed.

Lemma sole_unq : forall s t, Inv1 s -> q_T s = 1 -> t_reg (get_thr s t) = true ->
  q_P s = 1 /\ unqreg (q_ep s) (get_thr s t) = true.
Proof.
  intros s t I HT Hr. pose proof (P_le_T s I) as HP. pose proof (i_P1 s I) as HP1.
  split; [lia|]. destruct (unqreg (q_ep s) (get_thr s t)) eqn:Hu; [reflexivity|exfalso].
  enough (cnt (unqreg (q_ep s)) (q_thr s) = 0) by (rewrite <- (i_P s I) in *; lia).
  apply cnt_zero_iff. intros u _. change (unqreg (q_ep s) (get_thr s u) = false).
  destruct (Nat.eq_dec u t) as [->|Hne]; [exact Hu|].
  unfold unqreg. now rewrite (only_reg s t I HT Hr u Hne).
Qed.

(** when the last un-quiesced thread [t] changes the epoch, every other
    registered thread has observed the old epoch and is un-quiesced in the new one *)
Lemma other_seen_at_adv : forall s t u, Inv1 s -> q_P s = 1 -> unqreg (q_ep s) (get_thr s t) = true ->
  u <> t -> t_reg (get_thr s u) = true ->
  t_ls (get_thr s u) = q_ep s /\ unq (ep_adv (q_ep s)) (get_thr s u) = true.
Proof.
  intros s t u I HP Hu Hne Hr. pose proof (only_unq s t I HP Hu u Hne) as Hq. split.
  - destruct (i_ls s I u Hr) as [H|[_ Hc]]; [exact H|].
    unfold unqreg in Hq. rewrite Hr, Hc in Hq. discriminate.
  - apply quiesced_next; [apply (i_ep s I)|exact Hr|exact Hq].
Qed.
