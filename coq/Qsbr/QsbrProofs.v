(** QSBR coarse model: safety of every free. *)
From Coq Require Import List ZArith Lia.
From Unodb Require Import Qsbr.QsbrModel Qsbr.QsbrBase Qsbr.QsbrInv Qsbr.QsbrDue Qsbr.QsbrStep Qsbr.QsbrRun Qsbr.QsbrSafe.
Import ListNotations.
Local Open Scope Z_scope.

Definition retired_ptrs := QsbrRun.retired_ptrs.

Lemma W_drop : forall s1 f p, ~ In p f -> W (drop_state s1 f) p = W s1 p.
Proof. intros s1 f p Hn. unfold W, drop_state. cbn [q_wait with_ghost]. now apply wait_of_drop. Qed.

Lemma cls_drop : forall s1 f k p, ~ In p f -> cls s1 k p -> cls (drop_state s1 f) k p.
Proof.
  intros s1 f k p Hn H. destruct k as [|[|k]]; cbn [cls] in *; rewrite W_drop by exact Hn; exact H.
Qed.

Lemma inv2_drop : forall s1 f, Inv2 s1 -> (forall p, In p (pending s1) -> ~ In p f) ->
  Inv2 (drop_state s1 f).
Proof.
  intros s1 f J Hd. constructor.
  - intros u p Hin. rewrite W_drop; [exact (j_own s1 J u p Hin)|]. apply Hd, in_pending_iff. eauto.
  - intros k p H. apply cls_drop; [exact (Hd p (due_pending _ _ _ H))|exact (j_cls s1 J k p H)].
Qed.

Lemma op_bad_nil_iff : forall s1 f, op_bad s1 f = [] <-> forall q, In q f -> W s1 q = [].
Proof.
  intros s1 f. unfold op_bad. induction f as [|q f IH]; [split; [intros _ q []|reflexivity]|].
  cbn [map filter snd In]. change (wait_of (q_wait s1) q) with (W s1 q). destruct (W s1 q) eqn:E.
  - rewrite IH. split; [intros H q' [<-|Hq']; auto|intros H q' Hq'; apply H; now right].
  - split; [discriminate|]. intros H. now rewrite (H q (or_introl eq_refl)) in E.
Qed.

Lemma qrun_safe_gen : forall ops s s' fs bads, qrun s ops = Some (s', fs, bads) ->
  Inv1 s -> Inv2 s -> NoDup (pending s ++ QsbrRun.retired_ptrs ops) -> bads = [].
Proof.
  apply (qrun_ind (fun s ops _ _ bads =>
    Inv1 s -> Inv2 s -> NoDup (pending s ++ QsbrRun.retired_ptrs ops) -> bads = [])); [reflexivity|].
  intros s o ops s' fs bads Hen _ IH I J Hnd.
  rewrite retired_cons, nodup_co in Hnd.
  assert (Hco : forall a, (co (pending (fst (op_res s o))) a + co (snd (op_res s o)) a +
                           co (QsbrRun.retired_ptrs ops) a <= 1)%nat).
  { intros a. specialize (Hnd a). pose proof (perm_op s o a I Hen). rewrite !co_app in Hnd. lia. }
  destruct (safe_op s o I J Hen) as [J1 Hfree].
  { intros p Hp Hin. apply co_in in Hp. apply co_in in Hin. specialize (Hnd p). rewrite !co_app in Hnd. lia. }
  rewrite (proj2 (op_bad_nil_iff _ _) Hfree). apply IH.
  - now apply inv1_next.
  - apply inv2_drop; [exact J1|]. intros p Hp Hin. apply co_in in Hp. apply co_in in Hin.
    specialize (Hco p). lia.
  - rewrite pending_next. apply nodup_co. intros a. specialize (Hco a). rewrite co_app. lia.
Qed.

(** Safety.  The hypothesis excludes histories that hand the same block to
    deferred deallocation twice (a caller-side double free): without it the
    statement is false for the model, see [qrun_safe_needs_nodup]. *)
Theorem qrun_safe : forall n ops s fs bads,
  qrun (qinit n) ops = Some (s, fs, bads) -> NoDup (retired_ptrs ops) -> bads = [].
Proof.
  intros n ops s fs bads H Hnd.
  eapply qrun_safe_gen; [exact H|apply inv1_init|apply inv2_init|]. rewrite pending_init. exact Hnd.
Qed.

Example qrun_safe_needs_nodup :
  exists s fs, qrun (qinit 2)
    [QRegister 0%nat; QRegister 1%nat; QRetire 0%nat 7; QQuiescent 1%nat; QQuiescent 0%nat;
     QQuiescent 1%nat; QRetire 0%nat 7; QQuiescent 0%nat] = Some (s, fs, [(7, [1%nat])]).
Proof. eexists. eexists. vm_compute. reflexivity. Qed.
