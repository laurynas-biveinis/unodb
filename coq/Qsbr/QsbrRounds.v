(** QSBR coarse model: the three-round bound.

    [old k s p] is [QsbrDue.due k s p] spelled over the fields of [qstate]
    ([old_due]): the statements of this file can be read without [view], while
    the step lemmas they rest on are proved for [due], whose [view] is what
    [Moves] speaks about.  A call keeps
    a queued request at its due epoch or executes it, a due epoch is never
    below the current epoch, everything pending is due by [q_gep s + 2], and
    a round advances the epoch.  Hence three rounds execute everything that
    was pending before them. *)
From Coq Require Import List ZArith Lia.
From Unodb Require Import Qsbr.QsbrModel Qsbr.QsbrBase Qsbr.QsbrInv Qsbr.QsbrDue Qsbr.QsbrStep Qsbr.QsbrRun.
Import ListNotations.
Local Open Scope Z_scope.

Definition lag (e : Z) (x : thr) : Z := if e =? t_ls x then 0 else 1.

(** [G]: the ghost epoch; [lg]: the lag of [x] *)
Definition oldloc (k G lg : Z) (x : thr) (op oc : list (list ptr)) (p : ptr) : Prop :=
  (In p (t_prev x) /\ G - lg + 1 <= k) \/
  (In p (t_cur x) /\ G - lg + 2 <= k) \/
  (In p (concat op) /\ G + 1 <= k) \/
  (In p (concat oc) /\ G + 2 <= k).

Definition old (k : Z) (s : qstate) (p : ptr) : Prop :=
  exists u, oldloc k (q_gep s) (lag (q_ep s) (get_thr s u)) (get_thr s u) (q_oprev s) (q_ocur s) p.

Lemma old_ghost : forall k s w p, old k (with_ghost s w) p <-> old k s p.
Proof. intros. reflexivity. Qed.

Lemma old_due : forall k s p, old k s p <-> due k s p.
Proof.
  intros k s p. unfold old, due, oldloc, vdue, due_own, due_orph, view_of, seen_gep, lag. cbn [v_seen v_prev v_cur v_gep v_oprev v_ocur].
  split; intros [u H]; exists u; destruct (q_ep s =? t_ls (get_thr s u)); intuition lia.
Qed.

Lemma pending_old : forall s p, In p (pending s) -> old (q_gep s + 2) s p.
Proof. intros s p H. now apply old_due, pending_due. Qed.

Lemma old_pending : forall k s p, old k s p -> In p (pending s).
Proof. intros k s p H. apply old_due in H. exact (due_pending _ _ _ H). Qed.

Lemma old_threads : forall k s p, Inv1 s -> old k s p -> 1 <= q_T s.
Proof.
  intros k s p I H. pose proof (P_le_T s I). destruct (Z.eq_dec (q_T s) 0) as [HT|HT]; [exfalso|lia].
  destruct (i_T0 s I HT) as [Hop Hoc]. apply old_pending, in_pending_iff in H.
  rewrite Hop, Hoc in H. destruct H as [[u H]|[[]|[]]].
  rewrite (i_unreg s I u) in H; [exact H|].
  destruct (t_reg (get_thr s u)) eqn:Hr; [|reflexivity]. destruct (reg_TP_pos s u I Hr). lia.
Qed.

Lemma step_old : forall s o k p, Inv1 s -> op_enabled s o = true -> old k s p ->
  old k (next s o) p \/ In p (snd (op_res s o)).
Proof.
  intros s o k p I Hen H. destruct (step_op s o I Hen) as [x' ST]. apply old_due in H.
  destruct (step_fwd _ _ _ _ _ I Hen ST k p H) as [H1|H1]; [left|now right]. now apply old_due.
Qed.

Lemma step_gep : forall s o, Inv1 s -> op_enabled s o = true ->
  q_gep (next s o) = q_gep s + b2z (advances s o).
Proof. intros s o I Hen. destruct (step_op s o I Hen) as [x' ST]. exact (st_gep _ _ _ _ _ ST). Qed.

Lemma step_noadv : forall s o, Inv1 s -> op_enabled s o = true -> is_register o = false ->
  advances s o = false ->
  1 <= q_P (next s o) /\
  forall u, unqreg (q_ep (next s o)) (get_thr (next s o) u) = true ->
    unqreg (q_ep s) (get_thr s u) = true /\ o <> QQuiescent u /\ o <> QUnregister u.
Proof.
  intros s o I Hen Hnr Ha. destruct (step_op s o I Hen) as [x' ST].
  split; [exact (step_P1 _ _ _ _ _ I Hen ST Ha)|]. intros u.
  change (get_thr (next s o) u) with (get_thr (fst (op_res s o)) u).
  change (q_ep (next s o)) with (q_ep (fst (op_res s o))).
  rewrite (step_get _ _ _ _ _ Hen ST). destruct (Nat.eqb_spec u (op_tid o)) as [->|Hne].
  - rewrite (st_unq _ _ _ _ _ ST). destruct o; try discriminate; [congruence|].
    intros H. repeat split; [exact H|discriminate..].
  - rewrite (st_ep _ _ _ _ _ ST), Ha. intros H. repeat split; [exact H|intros ->; now apply Hne..].
Qed.

Lemma run_gep_mono : forall r s s' fs b, qrun s r = Some (s', fs, b) -> Inv1 s -> q_gep s <= q_gep s'.
Proof.
  apply (qrun_ind (fun s _ s' _ _ => Inv1 s -> q_gep s <= q_gep s')); [lia|].
  intros s o ops s' fs b Hen _ IH I. specialize (IH (inv1_next s o I Hen)).
  rewrite (step_gep s o I Hen) in IH. destruct (advances s o); cbn [b2z] in IH; lia.
Qed.

Lemma run_old : forall k p r s s' fs b, qrun s r = Some (s', fs, b) -> Inv1 s ->
  old k s p -> old k s' p \/ In p (concat fs).
Proof.
  intros k p. apply (qrun_ind (fun s _ s' fs _ => Inv1 s -> old k s p -> old k s' p \/ In p (concat fs)));
    [now left|].
  intros s o ops s' fs b Hen _ IH I H. cbn [concat]. rewrite in_app_iff.
  destruct (step_old s o k p I Hen H) as [H1|H1]; [|tauto].
  destruct (IH (inv1_next s o I Hen) H1); tauto.
Qed.

Lemma run_noadv : forall r s s' fs b, qrun s r = Some (s', fs, b) -> Inv1 s ->
  (forall o, In o r -> is_register o = false) -> q_gep s' = q_gep s -> 1 <= q_P s ->
  1 <= q_P s' /\
  forall u, unqreg (q_ep s') (get_thr s' u) = true ->
    unqreg (q_ep s) (get_thr s u) = true /\ ~ In (QQuiescent u) r /\ ~ In (QUnregister u) r.
Proof.
  apply (qrun_ind (fun s r s' _ _ => Inv1 s ->
    (forall o, In o r -> is_register o = false) -> q_gep s' = q_gep s -> 1 <= q_P s ->
    1 <= q_P s' /\
    forall u, unqreg (q_ep s') (get_thr s' u) = true ->
      unqreg (q_ep s) (get_thr s u) = true /\ ~ In (QQuiescent u) r /\ ~ In (QUnregister u) r)); [auto|].
  intros s o r s' fs b Hen Hrun IH I Hnr Hg HP.
  pose proof (inv1_next s o I Hen) as I1. pose proof (run_gep_mono _ _ _ _ _ Hrun I1) as Hmono.
  pose proof (step_gep s o I Hen) as Hg1.
  destruct (advances s o) eqn:Ha; cbn [b2z] in Hg1; [lia|].
  destruct (step_noadv s o I Hen (Hnr o (or_introl eq_refl)) Ha) as [HP1 Hu1].
  destruct (IH I1) as [HP' Hu']; [intros o' Ho'; apply Hnr; now right|lia|exact HP1|].
  split; [exact HP'|]. intros u Hunq. destruct (Hu' u Hunq) as [H1 [H2 H3]].
  destruct (Hu1 u H1) as [H4 [H5 H6]]. cbn [In]. intuition congruence.
Qed.

(** a round from [s]: every thread registered in [s] passes; nobody registers
    (a newcomer is un-quiesced, and the epoch would wait for it too) *)
Definition round_of (s : qstate) (r : list qop) : Prop :=
  (forall o, In o r -> match o with QRegister _ => False | _ => True end) /\
  (forall t, t_reg (get_thr s t) = true -> In (QQuiescent t) r \/ In (QUnregister t) r).

Lemma round_advances : forall r s s' fs b, Inv1 s -> 1 <= q_T s ->
  qrun s r = Some (s', fs, b) -> round_of s r -> q_gep s + 1 <= q_gep s'.
Proof.
  intros r s s' fs b I HT H [Hnr Hall].
  pose proof (run_gep_mono _ _ _ _ _ H I) as Hmono.
  destruct (Z.eq_dec (q_gep s') (q_gep s)) as [Heq|Hne]; [exfalso|lia].
  destruct (run_noadv r s s' fs b H I) as [HP Hu]; [|exact Heq|exact (i_P1 s I HT)|].
  { intros o Ho. specialize (Hnr o Ho). now destruct o. }
  rewrite (i_P s' (qrun_inv1 _ _ _ _ _ H I)) in HP.
  apply cnt_pos_ex in HP. destruct HP as [u Hunq].
  destruct (Hu u Hunq) as [H1 [H2 H3]]. apply unqreg_reg in H1. destruct (Hall u H1); contradiction.
Qed.

Lemma one_round : forall k p r s s' fs b, Inv1 s -> qrun s r = Some (s', fs, b) -> round_of s r ->
  old k s p -> In p (concat fs) \/ (old k s' p /\ q_gep s + 1 <= q_gep s').
Proof.
  intros k p r s s' fs b I H R Hold. destruct (run_old k p _ _ _ _ _ H I Hold) as [H1|H1]; [right|now left].
  split; [exact H1|]. exact (round_advances _ _ _ _ _ I (old_threads k s p I Hold) H R).
Qed.

Theorem three_rounds : forall n pre s fs bads r1 r2 r3 s1 f1 b1 s2 f2 b2 s3 f3 b3 p,
  qrun (qinit n) pre = Some (s, fs, bads) ->
  qrun s r1 = Some (s1, f1, b1) -> round_of s r1 ->
  qrun s1 r2 = Some (s2, f2, b2) -> round_of s1 r2 ->
  qrun s2 r3 = Some (s3, f3, b3) -> round_of s2 r3 ->
  In p (pending s) -> In p (concat (f1 ++ f2 ++ f3)).
Proof.
  intros n pre s fs bads r1 r2 r3 s1 f1 b1 s2 f2 b2 s3 f3 b3 p Hpre H1 R1 H2 R2 H3 R3 Hp.
  pose proof (qrun_inv1 _ _ _ _ _ Hpre (inv1_init n)) as I.
  pose proof (qrun_inv1 _ _ _ _ _ H1 I) as I1. pose proof (qrun_inv1 _ _ _ _ _ H2 I1) as I2.
  rewrite !concat_app, !in_app_iff.
  destruct (one_round _ p _ _ _ _ _ I H1 R1 (pending_old s p Hp)) as [Hf|[Ho1 Hg1]]; [tauto|].
  destruct (one_round _ p _ _ _ _ _ I1 H2 R2 Ho1) as [Hf|[Ho2 Hg2]]; [tauto|].
  destruct (one_round _ p _ _ _ _ _ I2 H3 R3 Ho2) as [Hf|[Ho3 Hg3]]; [tauto|].
  apply old_due, due_gep in Ho3. lia.
Qed.

Print Assumptions three_rounds.
