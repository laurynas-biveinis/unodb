(** Lifting the structural invariant and the exactly-once accounting to histories. *)
From Coq Require Import List ZArith Lia Permutation.
From Unodb Require Import Qsbr.QsbrModel Qsbr.QsbrBase Qsbr.QsbrInv Qsbr.QsbrDue Qsbr.QsbrStep.
Import ListNotations.
Local Open Scope Z_scope.

Definition retired_ptrs (ops : list qop) : list ptr :=
  flat_map (fun o => match o with QRetire _ p => [p] | _ => [] end) ops.

Definition drop_state (s1 : qstate) (f : list ptr) : qstate :=
  with_ghost s1 (ghost_drop (q_wait s1) f).

(** the state after the call, the ghost forgetting the waiting sets of what the call freed *)
Definition next (s : qstate) (o : qop) : qstate := drop_state (fst (op_res s o)) (snd (op_res s o)).

Definition op_bad (s1 : qstate) (f : list ptr) : list (ptr * list tid) :=
  filter (fun pw => match snd pw with [] => false | _ => true end)
         (map (fun p => (p, wait_of (q_wait s1) p)) f).

Lemma qrun_cons : forall s o ops,
  qrun s (o :: ops) =
  if op_enabled s o then
    match qrun (next s o) ops with
    | Some (s3, fs, bads) =>
        Some (s3, snd (op_res s o) :: fs, op_bad (fst (op_res s o)) (snd (op_res s o)) ++ bads)
    | None => None
    end
  else None.
Proof.
  intros s o ops. cbn [qrun]. fold (op_res s o). unfold next.
  destruct (op_enabled s o); [|reflexivity].
  destruct (op_res s o) as [s1 f]. reflexivity.
Qed.

Lemma qstep_eq : forall s o, qstep s o = (next s o, snd (op_res s o)).
Proof. intros s o. unfold qstep, next. fold (op_res s o). destruct (op_res s o); reflexivity. Qed.

Lemma qrun_ind : forall Q : qstate -> list qop -> qstate -> list (list ptr) -> list (ptr * list tid) -> Prop,
  (forall s, Q s [] s [] []) ->
  (forall s o ops s' fs bads, op_enabled s o = true ->
     qrun (next s o) ops = Some (s', fs, bads) -> Q (next s o) ops s' fs bads ->
     Q s (o :: ops) s' (snd (op_res s o) :: fs) (op_bad (fst (op_res s o)) (snd (op_res s o)) ++ bads)) ->
  forall ops s s' fs bads, qrun s ops = Some (s', fs, bads) -> Q s ops s' fs bads.
Proof.
  intros Q Hnil Hcons. induction ops as [|o ops IH]; intros s s' fs bads H.
  - cbn [qrun] in H. injection H as <- <- <-. apply Hnil.
  - rewrite qrun_cons in H. destruct (op_enabled s o) eqn:Hen; [|discriminate].
    destruct (qrun _ ops) as [[[s3 fs3] bads3]|] eqn:Hrun; [|discriminate].
    injection H as <- <- <-. apply Hcons; auto.
Qed.

Lemma qrun_invariant : forall Q : qstate -> Prop,
  (forall s o, Q s -> op_enabled s o = true -> Q (next s o)) ->
  forall ops s s' fs bads, qrun s ops = Some (s', fs, bads) -> Q s -> Q s'.
Proof. intros Q Hstep. apply (qrun_ind (fun s _ s' _ _ => Q s -> Q s')); auto. Qed.

Lemma pending_next : forall s o, pending (next s o) = pending (fst (op_res s o)).
Proof. reflexivity. Qed.

Lemma inv1_next : forall s o, Inv1 s -> op_enabled s o = true -> Inv1 (next s o).
Proof. intros. now apply inv1_ghost, inv1_op. Qed.

Lemma qrun_inv1 : forall ops s s' fs bads, qrun s ops = Some (s', fs, bads) -> Inv1 s -> Inv1 s'.
Proof. exact (qrun_invariant Inv1 inv1_next). Qed.

Lemma perm_op : forall s o a, Inv1 s -> op_enabled s o = true ->
  (co (pending (fst (op_res s o))) a + co (snd (op_res s o)) a = co (pending s) a + co (op_new o) a)%nat.
Proof. intros s o a I H. destruct (step_op s o I H) as [x' ST]. exact (step_perm _ _ _ _ _ H ST a). Qed.

Lemma retired_cons : forall o ops, retired_ptrs (o :: ops) = op_new o ++ retired_ptrs ops.
Proof. reflexivity. Qed.

Lemma qrun_perm : forall ops s s' fs bads, qrun s ops = Some (s', fs, bads) -> Inv1 s ->
  Permutation (pending s' ++ concat fs) (pending s ++ retired_ptrs ops).
Proof.
  apply (qrun_ind (fun s ops s' fs _ => Inv1 s ->
    Permutation (pending s' ++ concat fs) (pending s ++ retired_ptrs ops))); [reflexivity|].
  intros s o ops s' fs bads Hen _ IH I.
  apply perm_co. intros a. pose proof (co_perm _ _ (IH (inv1_next s o I Hen)) a) as Hc.
  pose proof (perm_op s o a I Hen) as Hp.
  rewrite pending_next in Hc. rewrite retired_cons. cbn [concat]. rewrite !co_app in *. lia.
Qed.

Lemma pending_init : forall n, pending (qinit n) = [].
Proof. intros n. apply pending_nil; [|reflexivity..]. intros u. now rewrite get_thr_init. Qed.

Lemma registered_count_cnt : forall s, registered_count s = cnt t_reg (q_thr s).
Proof. intros. unfold registered_count. now rewrite cnt_filter. Qed.

Theorem qrun_exactly_once : forall n ops s fs bads,
  qrun (qinit n) ops = Some (s, fs, bads) ->
  Permutation (pending s ++ concat fs) (retired_ptrs ops).
Proof.
  intros n ops s fs bads H. apply qrun_perm in H; [|apply inv1_init]. now rewrite pending_init in H.
Qed.

Theorem qrun_thread_count : forall n ops s fs bads,
  qrun (qinit n) ops = Some (s, fs, bads) -> q_T s = registered_count s /\ 0 <= q_P s <= q_T s.
Proof.
  intros n ops s fs bads H. apply qrun_inv1 in H; [|apply inv1_init].
  rewrite registered_count_cnt. split; [apply (i_T s H)|now apply P_le_T].
Qed.

Theorem immediate_only_single : forall n ops s fs bads t p,
  qrun (qinit n) ops = Some (s, fs, bads) -> op_enabled s (QRetire t p) = true ->
  ~ In p (pending s) -> In p (snd (q_retire s t p)) -> registered_count s <= 1.
Proof.
  intros n ops s fs bads t p H Hen Hnp Hin. apply qrun_inv1 in H; [|apply inv1_init].
  rewrite registered_count_cnt, <- (i_T s H).
  destruct (step_op s _ H Hen) as [x' ST].
  destruct (step_freed_due _ _ _ _ _ ST p Hin) as [Hd|[Hstm _]]; [|lia].
  now apply due_pending in Hd.
Qed.
