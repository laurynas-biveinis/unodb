(** Ghost invariant: the waiting set of a pending request shrinks as its due epoch approaches. *)
From Coq Require Import List ZArith Bool Lia.
From Unodb Require Import Qsbr.QsbrModel Qsbr.QsbrBase Qsbr.QsbrInv Qsbr.QsbrDue Qsbr.QsbrStep Qsbr.QsbrRun.
Import ListNotations.
Local Open Scope Z_scope.

(** the ghost waiting set of request [p]: who was registered at its retire and has not passed since *)
Definition W (s : qstate) (p : ptr) : list tid := wait_of (q_wait s) p.

(** class 0: waiting set within the registered threads;
    class 1: within the registered threads that have not quiesced in the current epoch;
    class 2 and above: empty *)
Definition cls (s : qstate) (k : nat) (p : ptr) : Prop :=
  match k with
  | O => forall v, In v (W s p) -> t_reg (get_thr s v) = true
  | S O => forall v, In v (W s p) -> unqreg (q_ep s) (get_thr s v) = true
  | _ => W s p = []
  end.

Lemma cls_S : forall s k p, cls s (S k) p -> cls s k p.
Proof.
  intros s [|[|k]] p H; cbn [cls] in *.
  - intros v Hv. exact (unqreg_reg _ _ (H v Hv)).
  - intros v Hv. rewrite H in Hv. contradiction.
  - exact H.
Qed.

Lemma cls_le : forall s k k' p, (k <= k')%nat -> cls s k' p -> cls s k p.
Proof.
  intros s k k' p Hle. induction Hle; auto. intros H. apply IHHle. now apply cls_S.
Qed.

Lemma cls_2 : forall s k p, (2 <= k)%nat -> cls s k p -> W s p = [].
Proof. intros s k p Hk H. apply (cls_le s 2 k p Hk) in H. exact H. Qed.

Lemma cls_of_nil : forall s k p, W s p = [] -> cls s k p.
Proof.
  intros s k p H. apply (cls_le s k (S (S k))); [lia|]. exact H.
Qed.

(** a request due at ghost epoch [q_gep s + 2 - a] has class [a]; its owner does not wait for itself *)
Record Inv2 (s : qstate) : Prop := {
  j_own : forall u p, In p (lists (get_thr s u)) -> ~ In u (W s p);
  j_cls : forall k p, due k s p -> cls s (Z.to_nat (q_gep s + 2 - k)) p
}.

Lemma inv2_of_empty : forall s, (forall p, In p (pending s) -> W s p = []) -> Inv2 s.
Proof.
  intros s H. constructor.
  - intros u p Hin. rewrite H; [tauto|]. apply in_pending_iff. eauto.
  - intros k p Hd. apply cls_of_nil, H. exact (due_pending _ _ _ Hd).
Qed.

Lemma inv2_init : forall n, Inv2 (qinit n).
Proof. intros n. apply inv2_of_empty. now rewrite pending_init. Qed.

Lemma pending_cls0 : forall s p, Inv2 s -> In p (pending s) -> cls s 0 p.
Proof.
  intros s p J H. apply pending_due, (j_cls s J) in H. now rewrite Z.sub_diag in H.
Qed.

Section StepCls.
Variables (s : qstate) (o : qop) (x' : thr) (s1 : qstate) (f : list ptr).
Hypotheses (I : Inv1 s) (Hen : op_enabled s o = true) (ST : Step s o x' s1 f).

Lemma W_step : forall p v, ~ In p (op_new o) -> In v (W s1 p) ->
  In v (W s p) /\ (is_pass o = true -> v <> op_tid o).
Proof.
  intros p v Hn. unfold W. rewrite (st_wait _ _ _ _ _ ST).
  clear Hen. destruct o as [t|t|t|t q]; cbn [op_wait is_pass op_tid op_new] in Hn |- *;
    rewrite ?wait_of_passed, ?in_remove_tid; try (intros H; split; [tauto|]; tauto || discriminate).
  cbn [wait_of]. destruct (Z.eqb_spec q p) as [->|_]; [cbn [In] in Hn; tauto|]. split; [tauto|discriminate].
Qed.

Lemma step_cls : forall a p, ~ In p (op_new o) -> cls s a p ->
  cls s1 (a + if advances s o then 1 else 0) p.
Proof.
  intros a p Hn H. pose proof (fun v => W_step p v Hn) as HW.
  pose proof (st_ep _ _ _ _ _ ST) as He. destruct (advances s o) eqn:Ha.
  - destruct (advances_spec s o Ha) as [Hp [Hq HP]].
    destruct a as [|[|a]]; cbn [cls Nat.add] in *.
    + intros v Hv. destruct (HW v Hv) as [Hv' Hne]. specialize (Hne Hp).
      rewrite (step_get_other _ _ _ _ _ Hen ST v Hne), He. unfold unqreg. rewrite (H v Hv').
      apply (other_seen_at_adv s (op_tid o) v I HP Hq Hne (H v Hv')).
    + apply list_empty_no_in. intros v Hv. destruct (HW v Hv) as [Hv' Hne]. specialize (Hne Hp).
      specialize (H v Hv'). now rewrite (only_unq s _ I HP Hq v Hne) in H.
    + apply list_empty_no_in. intros v Hv. destruct (HW v Hv) as [Hv' _]. now rewrite H in Hv'.
  - rewrite Nat.add_0_r.
    assert (Hself : forall v, In v (W s1 p) -> v = op_tid o -> is_pass o = false).
    { intros v Hv ->. destruct (is_pass o); [|reflexivity]. now destruct (proj2 (HW _ Hv)). }
    destruct a as [|[|a]]; cbn [cls] in *.
    + intros v Hv. rewrite (step_get _ _ _ _ _ Hen ST). destruct (Nat.eqb_spec v (op_tid o)) as [Hv0|_].
      * rewrite (st_reg _ _ _ _ _ ST). specialize (Hself v Hv Hv0). now destruct o.
      * apply H, HW, Hv.
    + intros v Hv. rewrite (step_get _ _ _ _ _ Hen ST), He.
      destruct (Nat.eqb_spec v (op_tid o)) as [Hv0|_]; [|apply H, HW, Hv].
      rewrite <- He, (st_unq _ _ _ _ _ ST). specialize (Hself v Hv Hv0). subst v.
      destruct o; try discriminate; [reflexivity|apply H, HW, Hv].
    + apply list_empty_no_in. intros v Hv. destruct (HW v Hv) as [Hv' _]. now rewrite H in Hv'.
Qed.
End StepCls.

Lemma sole_W : forall s t p v, Inv1 s -> q_T s = 1 -> t_reg (get_thr s t) = true ->
  cls s 0 p -> In v (W s p) -> v = t.
Proof.
  intros s t p v I HT Hr Hc Hv. destruct (Nat.eq_dec v t) as [|Hne]; [assumption|].
  specialize (Hc v Hv). now rewrite (only_reg s t I HT Hr v Hne) in Hc.
Qed.

(** of the result of a call: [Inv2] holds in the new state and nobody waits for what was freed *)
Definition safe_res (r : step_res) : Prop :=
  Inv2 (fst r) /\ forall q, In q (snd r) -> W (fst r) q = [].

(** a pass of the sole thread empties every waiting set *)
Lemma stm_pass_ok : forall s o, Inv1 s -> Inv2 s -> op_enabled s o = true -> is_pass o = true ->
  q_T s = 1 -> safe_res (op_res s o).
Proof.
  intros s o I J Hen Hp HT. destruct (step_op s o I Hen) as [x' ST].
  destruct (enabled_reg _ _ Hen) as [Hr _]. replace (is_register o) with false in Hr by now destruct o.
  assert (Hnew : op_new o = []) by now destruct o.
  assert (HE : forall p, In p (pending s) -> W (fst (op_res s o)) p = []).
  { intros p Hin. apply list_empty_no_in. intros v Hv.
    apply (W_step _ _ _ _ _ ST) in Hv; [|now rewrite Hnew]. destruct Hv as [Hv Hne].
    apply (Hne Hp), (sole_W s _ p v I HT Hr); [now apply pending_cls0|exact Hv]. }
  assert (Hsub : forall p, In p (pending (fst (op_res s o))) \/ In p (snd (op_res s o)) -> In p (pending s)).
  { intros p. rewrite !co_in. pose proof (perm_op s o p I Hen) as Hc. rewrite Hnew, co_nil in Hc. lia. }
  split; [apply inv2_of_empty|]; auto.
Qed.

Lemma safe_op : forall s o, Inv1 s -> Inv2 s -> op_enabled s o = true ->
  (forall p, In p (op_new o) -> ~ In p (pending s)) -> safe_res (op_res s o).
Proof.
  intros s o I J Hen Hnew. destruct (enabled_reg _ _ Hen) as [Hr _].
  (* a pass of the sole thread is [stm_pass_ok].  Otherwise a request that stays queued keeps its due
     epoch ([step_bwd]) while the ghost epoch grows by [d], and its class grows by the same [d]
     ([step_cls]): this is [Hcls], and gives [j_cls].  The new request is due two epochs ahead and
     waits for registered threads only ([Hnw]).  What is freed was due at the new epoch, so has class 2,
     except in single-thread mode. *)
  assert (Hsole : q_T s < 2 -> is_register o = false -> q_T s = 1).
  { intros Hs H0. rewrite H0 in Hr. destruct (reg_TP_pos s _ I Hr). lia. }
  destruct (is_pass o && (q_T s <? 2)) eqn:Hsp.
  { apply andb_prop in Hsp. destruct Hsp as [Hp Hs]. apply Z.ltb_lt in Hs.
    apply stm_pass_ok; auto. apply Hsole; [exact Hs|now destruct o]. }
  destruct (step_op s o I Hen) as [x' ST]. unfold safe_res. set (s1 := fst (op_res s o)) in *.
  set (d := if advances s o then 1%nat else 0%nat).
  assert (Hd : q_gep s1 = q_gep s + Z.of_nat d).
  { rewrite (st_gep _ _ _ _ _ ST). unfold d. now destruct (advances s o). }
  assert (Hold : forall p, In p (pending s) -> ~ In p (op_new o)) by (intros p H H'; exact (Hnew p H' H)).
  assert (Hnw : forall p v, In p (op_new o) -> In v (W s1 p) ->
                v <> op_tid o /\ t_reg (get_thr s v) = true).
  { intros p v Hin. unfold W. rewrite (st_wait _ _ _ _ _ ST). destruct o; try contradiction.
    destruct Hin as [<-|[]]. cbn [op_wait wait_of op_tid]. rewrite Z.eqb_refl. apply in_registered_others. }
  assert (Hcls : forall k p, due k s p -> cls s1 (Z.to_nat (q_gep s + 2 - k) + d) p).
  { intros k p H. apply (step_cls _ _ _ _ _ I Hen ST); [apply Hold, (due_pending _ _ _ H)|apply (j_cls s J), H]. }
  split; [constructor|].
  - (* j_own *) intros u p Hin Hv. destruct (step_own _ _ _ _ _ Hen ST u p Hin) as [H|[-> H]]; [|now apply (Hnw p _ H) in Hv].
    apply (W_step _ _ _ _ _ ST) in Hv; [exact (j_own s J u p H (proj1 Hv))|].
    apply Hold, in_pending_iff. eauto.
  - (* j_cls *) intros k p Hdue. destruct (step_bwd _ _ _ _ _ I Hen ST k p Hdue) as [H|[H Hk]].
    + eapply cls_le; [|exact (Hcls k p H)]. lia.
    + replace (Z.to_nat _) with O by lia. intros v Hv. destruct (Hnw p v H Hv) as [Hne Hrv].
      now rewrite (step_get_other _ _ _ _ _ Hen ST v Hne).
  - (* the frees *) intros q Hq. destruct (step_freed_due _ _ _ _ _ ST q Hq) as [H|[Hs H]].
    { eapply cls_2; [|exact (Hcls _ q H)]. lia. }
    (* single-thread mode, not a pass: the caller's own requests and the new one wait for nobody *)
    assert (Hp : is_pass o = false).
    { destruct (is_pass o); [|reflexivity]. apply Z.ltb_lt in Hs. now rewrite Hs in Hsp. }
    destruct H as [H|[H|H]]; [| |apply advances_spec in H; destruct H as [H _]; congruence].
    + destruct (is_register o) eqn:Hreg; [now rewrite (i_unreg s I _ Hr) in H|]. specialize (Hsole Hs eq_refl).
      apply list_empty_no_in. intros v Hv.
      apply (W_step _ _ _ _ _ ST) in Hv; [|apply Hold, in_pending_iff; eauto]. destruct Hv as [Hv _].
      apply (j_own s J _ q H). replace (op_tid o) with v; [exact Hv|].
      apply (sole_W s _ q v I Hsole Hr); [apply pending_cls0, in_pending_iff; eauto|exact Hv].
    + destruct (is_register o) eqn:Hreg; [now destruct o|]. specialize (Hsole Hs eq_refl).
      apply list_empty_no_in. intros v Hv.
      destruct (Hnw q v H Hv) as [Hne Hrv]. now rewrite (only_reg s _ I Hsole Hr v Hne) in Hrv.
Qed.
