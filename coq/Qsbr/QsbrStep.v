(** [Step s o x' s1 f]: what the proofs need to know about the state [s1] and the frees [f]
    of an enabled call [o] from a state [s] satisfying [Inv1], [x'] being the caller's new
    thread object.  This is the only file that unfolds [q_register], [q_unregister],
    [q_quiescent] and [q_retire]. *)
From Coq Require Import List ZArith Bool Lia.
From Unodb Require Import Qsbr.QsbrModel Qsbr.QsbrBase Qsbr.QsbrInv Qsbr.QsbrDue.
Import ListNotations.
Local Open Scope Z_scope.

Definition op_res (s : qstate) (o : qop) : step_res :=
  match o with
  | QRegister t => q_register s t
  | QUnregister t => q_unregister s t
  | QQuiescent t => q_quiescent s t
  | QRetire t p => q_retire s t p
  end.

Definition op_new (o : qop) : list ptr := match o with QRetire _ p => [p] | _ => [] end.

Definition is_register (o : qop) : bool := match o with QRegister _ => true | _ => false end.
Definition is_pass (o : qop) : bool :=
  match o with QQuiescent _ | QUnregister _ => true | _ => false end.

Definition advances (s : qstate) (o : qop) : bool :=
  is_pass o && (unqreg (q_ep s) (get_thr s (op_tid o)) && (q_P s =? 1)).

Definition op_wait (s : qstate) (o : qop) : list (ptr * list tid) :=
  match o with
  | QRegister _ => q_wait s
  | QRetire t p => (p, registered_others (q_thr s) t O) :: q_wait s
  | QQuiescent t | QUnregister t => ghost_passed (q_wait s) t
  end.

Lemma enabled_reg : forall s o, op_enabled s o = true ->
  t_reg (get_thr s (op_tid o)) = negb (is_register o) /\ (op_tid o < length (q_thr s))%nat.
Proof.
  intros s o H. apply andb_prop in H. destruct H as [Hlt H]. apply Nat.ltb_lt in Hlt.
  split; [|exact Hlt]. destruct o; cbn [is_register negb op_tid] in *; [now apply negb_true_iff|auto..].
Qed.

Record Step (s : qstate) (o : qop) (x' : thr) (s1 : qstate) (f : list ptr) : Prop := {
  st_thr : q_thr s1 = set_nth_thr (op_tid o) x' (q_thr s);
  st_ep : q_ep s1 = if advances s o then ep_adv (q_ep s) else q_ep s;
  st_gep : q_gep s1 = q_gep s + b2z (advances s o);
  st_T : q_T s1 = q_T s + b2z (t_reg x') - b2z (t_reg (get_thr s (op_tid o)));
  st_P : q_P s1 = if advances s o then q_T s1
                  else q_P s + b2z (unqreg (q_ep s) x') - b2z (unqreg (q_ep s) (get_thr s (op_tid o)));
  st_reg : t_reg x' = match o with QUnregister _ => false | _ => true end;
  st_ls : t_ls x' = q_ep s1;
  st_qs : 0 <= t_qs x';
  st_unq : unqreg (q_ep s1) x' =
           match o with
           | QRegister _ => true
           | QRetire _ _ => unqreg (q_ep s) (get_thr s (op_tid o))
           | QQuiescent _ => advances s o
           | QUnregister _ => false
           end;
  st_wait : q_wait s1 = op_wait s o;
  st_mv : Moves (q_T s <? 2) (op_new o) (view_of s (get_thr s (op_tid o))) (view_of s1 x') f;
  st_left : t_reg x' = false -> lists x' = [];
  (* an epoch change in single-thread mode executes everything the caller can see *)
  st_flush : advances s o = true -> q_T s < 2 -> lists x' = [] /\ q_oprev s1 = [] /\ q_ocur s1 = []
}.

Lemma exec_prev_fields : forall x stm de nc x' f, exec_prev x stm de nc = (x', f) ->
  t_reg x' = t_reg x /\ t_lsq x' = t_lsq x /\ t_ls x' = de /\ t_qs x' = t_qs x /\
  (stm = true -> t_prev x' = [] /\ t_cur x' = nc).
Proof.
  intros x stm de nc x' f H. unfold exec_prev in H. destruct stm; injection H as <- _; cbn; auto 6.
  repeat split; auto. discriminate.
Qed.

Lemma adv_seen_fields : forall x stm e nc x' f b, adv_seen x stm e nc = (x', f, b) ->
  t_reg x' = t_reg x /\ t_lsq x' = t_lsq x /\ t_ls x' = e /\ t_qs x' = t_qs x.
Proof.
  intros x stm e nc x' f b H. destruct (Z.eq_dec (t_ls x) e) as [Hs|Hs].
  - rewrite adv_seen_seen in H by exact Hs. injection H as <- _ _. auto.
  - rewrite adv_seen_new in H by exact Hs. destruct (exec_prev x stm e nc) as [x1 f1] eqn:E.
    injection H as <- _ _. apply exec_prev_fields in E. tauto.
Qed.

Lemma handle_orphans_stm : forall s op oc fo, handle_orphans s true = (op, oc, fo) -> op = [] /\ oc = [].
Proof. intros s op oc fo H. injection H as <- <- _. auto. Qed.

(** [quiescent] first brings the thread's quiescent-state record up to the current epoch *)
Definition mark (e : Z) (x : thr) : thr :=
  if negb (e =? t_lsq x)
  then {| t_reg := t_reg x; t_lsq := e; t_ls := t_ls x; t_qs := 0; t_prev := t_prev x; t_cur := t_cur x |}
  else x.

Lemma mark_spec : forall e x, 0 <= t_qs x ->
  t_reg (mark e x) = t_reg x /\ t_lsq (mark e x) = e /\ t_ls (mark e x) = t_ls x /\
  t_prev (mark e x) = t_prev x /\ t_cur (mark e x) = t_cur x /\
  0 <= t_qs (mark e x) /\ (t_qs (mark e x) =? 0) = unq e x.
Proof.
  intros e x Hq. unfold mark, unq. rewrite (Z.eqb_sym (t_lsq x)).
  destruct (Z.eqb_spec e (t_lsq x)); cbn [negb orb t_reg t_lsq t_ls t_qs t_prev t_cur]; auto 8.
  repeat split; auto. lia.
Qed.

(* projections of a state or thread record written out, and the functions of the call that [Step] mentions *)
(* In the four lemmas below [constructor; prj; rewrite ..; try reflexivity; try lia; try discriminate]
   closes the fields of [Step] that are computation; [st_mv] always survives, and is assembled from
   the [moves_] lemmas of the parts of the call. *)
Ltac prj := cbn [q_ep q_T q_P q_oprev q_ocur q_thr q_gep q_wait t_reg t_lsq t_ls t_qs t_prev t_cur
                 set_thr with_ghost fst snd op_tid op_new op_wait b2z andb negb].

Lemma quiescent_Step : forall s t, Inv1 s -> op_enabled s (QQuiescent t) = true ->
  exists x', Step s (QQuiescent t) x' (fst (q_quiescent s t)) (snd (q_quiescent s t)).
Proof.
  intros s t I Hen. destruct (enabled_reg _ _ Hen) as [Hr Hlt]. cbn [op_tid is_register negb] in Hr, Hlt.
  destruct (reg_TP_pos s t I Hr) as [HT HP]. pose proof (i_qs s I t) as Hqs.
  unfold q_quiescent. change (get_thr (with_ghost s _) t) with (get_thr s t). prj.
  destruct (adv_seen _ _ _ _) as [[x1 f1] b] eqn:E1.
  destruct (adv_seen_fields _ _ _ _ _ _ _ E1) as [R1 [Q1 [L1 S1]]].
  pose proof (moves_observe s _ _ _ _ _ (q_oprev s) (q_ocur s) E1) as M1.
  change (if negb (q_ep s =? t_lsq x1) then _ else x1) with (mark (q_ep s) x1).
  destruct (mark_spec (q_ep s) x1) as [R2 [Q2 [L2 [Pv2 [Cu2 [S2 U2]]]]]]; [lia|].
  rewrite U2.
  assert (Hux : unqreg (q_ep s) (get_thr s t) = unq (q_ep s) x1).
  { unfold unqreg. rewrite Hr. unfold unq. now rewrite Q1, S1. }
  assert (Hadv : advances s (QQuiescent t) = unq (q_ep s) x1 && negb (1 <? q_P s)).
  { unfold advances. cbn [is_pass op_tid andb]. rewrite Hux. f_equal.
    destruct (Z.eqb_spec (q_P s) 1); destruct (Z.ltb_spec 1 (q_P s)); cbn [negb]; lia. }
  (* without an epoch change the thread only counts its quiescent state; [q_P] may drop *)
  set (x3 := {| t_reg := _; t_lsq := _; t_ls := _; t_qs := _ + 1; t_prev := _; t_cur := _ |}).
  assert (Hsame : forall P', advances s (QQuiescent t) = false -> P' = q_P s - b2z (unq (q_ep s) x1) ->
    Step s (QQuiescent t) x3
      {| q_ep := q_ep s; q_T := q_T s; q_P := P'; q_oprev := q_oprev s; q_ocur := q_ocur s;
         q_thr := set_nth_thr t x3 (q_thr s); q_gep := q_gep s; q_wait := ghost_passed (q_wait s) t |} f1).
  { intros P' Ha ->.
    assert (Hx3 : unqreg (q_ep s) x3 = false).
    { unfold unqreg. rewrite unq_passed by (subst x3; prj; lia). apply andb_false_r. }
    constructor; prj; rewrite ?Ha, ?Hux, ?Hx3; subst x3; prj; rewrite ?R2, ?L2, ?R1, ?L1, ?Hr; prj;
      try reflexivity; try lia; try discriminate.
    (* st_mv *) unfold view_of, seen_gep. prj. rewrite Z.eqb_refl, Pv2, Cu2. exact M1. }
  destruct (unq (q_ep s) x1) eqn:Hu; [destruct (Z.ltb_spec 1 (q_P s))|]; cbn [andb negb] in Hadv.
  - exists x3. apply Hsame; [exact Hadv|reflexivity].
  - clear Hsame x3. destruct (handle_orphans _ _) as [[op oc] fo] eqn:E2.
    destruct (exec_prev _ _ _ _) as [x4 f2] eqn:E3.
    destruct (exec_prev_fields _ _ _ _ _ _ E3) as [R4 [Q4 [L4 [S4 F4]]]]. prj.
    exists x4. constructor; prj; rewrite ?Hadv, ?Hux, ?R4, ?Q4, ?L4, ?S4; prj;
      rewrite ?R2, ?Q2, ?L2, ?R1, ?L1, ?Hr; prj; try reflexivity; try lia; try discriminate.
    + (* st_unq *) unfold unqreg. rewrite R4. prj. rewrite R2, R1, Hr. apply unq_fresh. rewrite S4. prj. now apply Z.eqb_eq.
    + (* st_mv *) unfold view_of, seen_gep. prj. rewrite L4, Z.eqb_refl.
      pose proof (moves_rotate _ _ _ _ _ _ _ _ _ _ E3 E2 eq_refl) as M2. cbn [t_prev t_cur] in M2.
      rewrite Pv2, Cu2 in M2. exact (moves_trans _ _ _ _ _ _ _ M1 M2).
    + (* st_flush *) intros _ Hstm. apply Z.ltb_lt in Hstm. rewrite Hstm in *. apply handle_orphans_stm in E2.
      destruct (F4 eq_refl) as [H1 H2]. unfold lists. rewrite H1, H2. tauto.
  - exists x3. apply Hsame; [exact Hadv|prj; lia].
Qed.

Lemma unregister_Step : forall s t, Inv1 s -> op_enabled s (QUnregister t) = true ->
  exists x', Step s (QUnregister t) x' (fst (q_unregister s t)) (snd (q_unregister s t)).
Proof.
  intros s t I Hen. destruct (enabled_reg _ _ Hen) as [Hr Hlt]. cbn [op_tid is_register negb] in Hr, Hlt.
  destruct (reg_TP_pos s t I Hr) as [HT HP]. pose proof (i_qs s I t) as Hqs.
  unfold q_unregister. change (get_thr (with_ghost s _) t) with (get_thr s t). prj.
  destruct (Z.eqb_spec (q_P s) 0); [lia|].
  destruct (adv_seen _ _ _ _) as [[x1 f1] b] eqn:E1.
  destruct (adv_seen_fields _ _ _ _ _ _ _ E1) as [R1 [Q1 [L1 S1]]].
  pose proof (moves_observe s _ _ _ _ _ (q_oprev s) (q_ocur s) E1) as M1.
  change (negb (t_lsq (get_thr s t) =? q_ep s) || (t_qs (get_thr s t) =? 0)) with (unq (q_ep s) (get_thr s t)).
  assert (Hux : unqreg (q_ep s) (get_thr s t) = unq (q_ep s) (get_thr s t)) by (unfold unqreg; now rewrite Hr).
  assert (Hadv : advances s (QUnregister t) = unq (q_ep s) (get_thr s t) && (q_P s =? 1)).
  { unfold advances. cbn [is_pass op_tid andb]. now rewrite Hux. }
  destruct (unq (q_ep s) (get_thr s t) && (q_P s =? 1)) eqn:Ha.
  - destruct (handle_orphans _ _) as [[op oc] fo] eqn:E2.
    destruct (exec_prev _ _ _ _) as [x2 f2] eqn:E3.
    destruct (exec_prev_fields _ _ _ _ _ _ E3) as [R2 [Q2 [L2 [S2 F2]]]]. prj.
    eexists. constructor; [prj; reflexivity|..]; prj; rewrite ?Hadv, ?Hux, ?R2, ?Q2, ?L2, ?S2; prj;
      rewrite ?R1, ?L1, ?S1, ?Hr; prj; try reflexivity; try lia; try discriminate.
    + (* st_mv *) unfold view_of, seen_gep. prj. rewrite Z.eqb_refl.
      pose proof (moves_rotate _ _ _ _ _ _ _ _ _ _ E3 E2 eq_refl) as M2.
      pose proof (moves_orphan (q_T s <? 2) (t_prev x2) (t_cur x2) (q_gep s + 1) op oc) as M3.
      eapply moves_frees; [|exact (moves_trans _ _ _ _ _ _ _ M1 (moves_trans _ _ _ _ _ _ _ M2 M3))].
      intros a. rewrite !co_app, co_nil. lia.
    + (* st_flush *) intros _ Hstm. apply Z.ltb_lt in Hstm. rewrite Hstm in *. apply handle_orphans_stm in E2.
      destruct (F2 eq_refl) as [-> ->]. destruct E2 as [-> ->]. auto.
  - eexists. constructor; [prj; reflexivity|..]; prj; rewrite ?Hadv, ?Hux; prj;
      rewrite ?R1, ?L1, ?S1, ?Hr; prj; try reflexivity; try lia; try discriminate.
    + (* st_P *) unfold unqreg. prj. destruct (unq _ _); prj; lia.
    + (* st_mv *) unfold view_of, seen_gep. prj. rewrite Z.eqb_refl.
      exact (moves_trans _ _ _ _ _ _ _ M1 (moves_orphan _ _ _ _ _ _)).
Qed.

Lemma retire_Step : forall s t p, Inv1 s -> op_enabled s (QRetire t p) = true ->
  exists x', Step s (QRetire t p) x' (fst (q_retire s t p)) (snd (q_retire s t p)).
Proof.
  intros s t p I Hen. destruct (enabled_reg _ _ Hen) as [Hr Hlt]. cbn [op_tid is_register negb] in Hr, Hlt.
  pose proof (i_qs s I t) as Hqs.
  assert (Hadv : advances s (QRetire t p) = false) by reflexivity.
  unfold q_retire.
  destruct (q_T s <? 2) eqn:Hstm; [|destruct (Z.eqb_spec (t_ls (get_thr s t)) (q_ep s)) as [Hs|Hs]; cbn [negb]].
  - destruct (adv_seen _ _ _ _) as [[x1 f1] b] eqn:E1.
    destruct (adv_seen_fields _ _ _ _ _ _ _ E1) as [R1 [Q1 [L1 S1]]].
    pose proof (moves_observe s _ _ _ _ _ (q_oprev s) (q_ocur s) E1) as M1.
    eexists. constructor; [prj; reflexivity|..]; prj; rewrite ?Hadv, ?(unqreg_fields _ _ _ R1 Q1 S1); prj;
      rewrite ?R1, ?L1, ?S1, ?Hr; prj; try reflexivity; try lia; try discriminate.
    (* st_mv *) unfold view_of, seen_gep. prj. rewrite L1, Z.eqb_refl, Hstm.
    exact (moves_trans _ _ _ _ _ _ _ M1 (moves_free_now _ _)).
  - eexists. constructor; [prj; reflexivity|..]; prj; rewrite ?Hadv; prj;
      try reflexivity; try lia; try discriminate; try assumption.
    + (* st_P *) change (unqreg (q_ep s) {| t_reg := _; t_lsq := _; t_ls := _; t_qs := _; t_prev := _; t_cur := _ |})
        with (unqreg (q_ep s) (get_thr s t)). lia.
    + (* st_mv *) unfold view_of, seen_gep. prj. rewrite Hs, Z.eqb_refl. apply moves_append.
    + (* st_left *) congruence.
  - rewrite adv_seen_new by exact Hs. destruct (exec_prev _ _ _ _) as [x1 f1] eqn:E1.
    destruct (exec_prev_fields _ _ _ _ _ _ E1) as [R1 [Q1 [L1 [S1 _]]]].
    eexists. constructor; [prj; reflexivity|..]; prj; rewrite ?Hadv, ?(unqreg_fields _ _ _ R1 Q1 S1); prj;
      rewrite ?R1, ?L1, ?S1, ?Hr; prj; try reflexivity; try lia; try discriminate.
    (* st_mv *) unfold view_of, seen_gep. prj. rewrite L1, Z.eqb_refl.
    destruct (Z.eqb_spec (q_ep s) (t_ls (get_thr s t))); [congruence|]. rewrite Hstm.
    eapply moves_exec_prev; [exact E1|lia|lia].
Qed.

Lemma register_Step : forall s t, Inv1 s -> op_enabled s (QRegister t) = true ->
  exists x', Step s (QRegister t) x' (fst (q_register s t)) (snd (q_register s t)).
Proof.
  intros s t I Hen. destruct (enabled_reg _ _ Hen) as [Hr Hlt]. cbn [op_tid is_register negb] in Hr, Hlt.
  assert (Hadv : advances s (QRegister t) = false) by reflexivity.
  unfold q_register.
  eexists. constructor; [prj; reflexivity|..]; prj; rewrite ?Hadv; prj;
      rewrite ?Hr; prj; try reflexivity; try lia; try discriminate.
  - (* st_P *) unfold unqreg. prj. rewrite Hr, unq_fresh by reflexivity. prj. lia.
  - (* st_unq *) unfold unqreg. prj. now apply unq_fresh.
  - (* st_mv *) unfold view_of. prj. pose proof (i_unreg s I t Hr) as He. apply app_eq_nil in He. destruct He as [-> ->].
    apply moves_idle.
Qed.

Lemma advances_spec : forall s o, advances s o = true ->
  is_pass o = true /\ unqreg (q_ep s) (get_thr s (op_tid o)) = true /\ q_P s = 1.
Proof.
  intros s o H. apply andb_prop in H. destruct H as [H1 H]. apply andb_prop in H. destruct H as [H2 H3].
  apply Z.eqb_eq in H3. auto.
Qed.

Lemma not_advances : forall s o, advances s o = false -> is_pass o = true ->
  unqreg (q_ep s) (get_thr s (op_tid o)) = true -> q_P s <> 1.
Proof. intros s o H Hp Hu. unfold advances in H. rewrite Hp, Hu in H. now apply Z.eqb_neq in H. Qed.

Section Step.
Variables (s : qstate) (o : qop) (x' : thr) (s1 : qstate) (f : list ptr).
Hypotheses (I : Inv1 s) (Hen : op_enabled s o = true) (ST : Step s o x' s1 f).

Lemma step_get : forall u, get_thr s1 u = if Nat.eqb u (op_tid o) then x' else get_thr s u.
Proof. intros u. eapply get_set_thr; [apply (enabled_reg _ _ Hen)|apply (st_thr _ _ _ _ _ ST)]. Qed.

Lemma step_get_other : forall u, u <> op_tid o -> get_thr s1 u = get_thr s u.
Proof. intros u H. rewrite step_get. now destruct (Nat.eqb_spec u (op_tid o)). Qed.

Lemma step_get_self : get_thr s1 (op_tid o) = x'.
Proof. now rewrite step_get, Nat.eqb_refl. Qed.

Lemma step_P1 : advances s o = false -> 1 <= q_P s1.
Proof.
  intros Ha. destruct (enabled_reg _ _ Hen) as [Hr _].
  pose proof (st_P _ _ _ _ _ ST) as HP. pose proof (st_unq _ _ _ _ _ ST) as Hu.
  rewrite (st_ep _ _ _ _ _ ST) in Hu. rewrite Ha in HP, Hu. rewrite Hu in HP. clear Hu.
  destruct (is_register o) eqn:Hreg.
  - (* register: the new thread is un-quiesced *)
    pose proof (P_le_T s I). unfold unqreg in HP. rewrite Hr in HP. destruct o; try discriminate.
    cbn [negb andb b2z] in HP. lia.
  - (* otherwise the caller was counted, and gives up its count only if it is not the last *)
    destruct (reg_TP_pos s _ I Hr) as [_ HP1]. pose proof (not_advances s o Ha) as Hn.
    destruct (unqreg (q_ep s) (get_thr s (op_tid o))); destruct o; try discriminate;
      rewrite ?Ha in HP; cbn [b2z is_pass] in *; try specialize (Hn eq_refl eq_refl); lia.
Qed.

Lemma inv1_step : Inv1 s1.
Proof.
  destruct (enabled_reg _ _ Hen) as [Hr Hlt]. pose proof (st_thr _ _ _ _ _ ST) as Hthr.
  assert (HT : q_T s1 = cnt t_reg (q_thr s1)).
  { rewrite (st_T _ _ _ _ _ ST), Hthr, cnt_set_nth, (i_T s I) by exact Hlt. unfold get_thr. lia. }
  assert (Hqs : forall u, 0 <= t_qs (get_thr s1 u)).
  { intros u. rewrite step_get. destruct (Nat.eqb u (op_tid o)); [apply (st_qs _ _ _ _ _ ST)|apply (i_qs s I)]. }
  assert (Hun : forall u, t_reg (get_thr s1 u) = false -> lists (get_thr s1 u) = []).
  { intros u. rewrite step_get. destruct (Nat.eqb u (op_tid o)); [apply (st_left _ _ _ _ _ ST)|apply (i_unreg s I)]. }
  pose proof (st_ep _ _ _ _ _ ST) as He. pose proof (st_P _ _ _ _ _ ST) as HP.
  pose proof (st_ls _ _ _ _ _ ST) as Hls. pose proof (st_unq _ _ _ _ _ ST) as Hu.
  destruct (advances s o) eqn:Ha.
  - (* epoch change: every registered thread is un-quiesced in the new epoch *)
    destruct (advances_spec s o Ha) as [Hp [Hq HP1]].
    pose proof (other_seen_at_adv s (op_tid o)) as Hoth.
    assert (HPc : q_P s1 = cnt (unqreg (q_ep s1)) (q_thr s1)).
    { rewrite HP, HT. apply cnt_ext_idx. intros u _. change (nth u (q_thr s1) thr0) with (get_thr s1 u).
      rewrite step_get. destruct (Nat.eqb_spec u (op_tid o)) as [->|Hne].
      - rewrite Hu, (st_reg _ _ _ _ _ ST). now destruct o.
      - unfold unqreg. destruct (t_reg (get_thr s u)) eqn:Hru; [|reflexivity].
        rewrite He. now destruct (Hoth u I HP1 Hq Hne Hru) as [_ ->]. }
    constructor; auto.
    + (* i_ep *) rewrite He. apply ep_adv_range.
    + (* i_P1 *) rewrite HP. auto.
    + (* i_ls *) intros u. rewrite step_get. destruct (Nat.eqb_spec u (op_tid o)) as [->|Hne]; intros Hru; [now left|right].
      destruct (Hoth u I HP1 Hq Hne Hru) as [-> H2]. rewrite He. auto.
    + (* i_T0 *) intros H0. apply (st_flush _ _ _ _ _ ST Ha).
      rewrite (st_T _ _ _ _ _ ST) in H0. destruct (t_reg x'), (t_reg (get_thr s (op_tid o))); cbn [b2z] in H0; lia.
  - assert (HPc : q_P s1 = cnt (unqreg (q_ep s1)) (q_thr s1)).
    { rewrite HP, He, Hthr, cnt_set_nth, (i_P s I) by exact Hlt. unfold get_thr. lia. }
    pose proof (step_P1 Ha) as HP1.
    constructor; auto.
    + (* i_ep *) rewrite He. apply (i_ep s I).
    + (* i_ls *) intros u. rewrite step_get, He. destruct (Nat.eqb u (op_tid o)); [intros _; left; congruence|apply (i_ls s I)].
    + (* i_T0: not reached, [q_P s1] is positive *) intros H0. pose proof (cnt_unq_le (q_ep s1) (q_thr s1)). lia.
Qed.

Lemma step_perm : forall a, (co (pending s1) a + co f a = co (pending s) a + co (op_new o) a)%nat.
Proof.
  intros a. pose proof (mv_co _ _ _ _ _ (st_mv _ _ _ _ _ ST) a).
  pose proof (vco_pending s s1 _ x' a (proj2 (enabled_reg _ _ Hen)) (st_thr _ _ _ _ _ ST)). lia.
Qed.

(** the other threads' requests keep their due epochs *)
Lemma step_seen_other : forall u p, u <> op_tid o -> In p (lists (get_thr s u)) ->
  seen_gep s1 (get_thr s u) = seen_gep s (get_thr s u).
Proof.
  intros u p Hne Hin. unfold seen_gep. rewrite (st_ep _ _ _ _ _ ST), (st_gep _ _ _ _ _ ST).
  destruct (advances s o) eqn:Ha; cbn [b2z]; [|now rewrite Z.add_0_r].
  destruct (advances_spec s o Ha) as [_ [Hq HP]].
  destruct (t_reg (get_thr s u)) eqn:Hr; [|now rewrite (i_unreg s I u Hr) in Hin].
  destruct (other_seen_at_adv s _ u I HP Hq Hne Hr) as [-> _]. rewrite Z.eqb_refl.
  destruct (Z.eqb_spec (ep_adv (q_ep s)) (q_ep s)) as [E|_]; [|lia]. now apply ep_adv_neq in E; [|apply (i_ep s I)].
Qed.

Let M := st_mv _ _ _ _ _ ST.

Lemma step_due_other : forall u k p, u <> op_tid o ->
  due_own k (view_of s1 (get_thr s1 u)) p <-> due_own k (view_of s (get_thr s u)) p.
Proof.
  intros u k p Hne. rewrite step_get_other by exact Hne. unfold due_own. cbn [view_of v_seen v_prev v_cur].
  assert (E : In p (t_prev (get_thr s u)) \/ In p (t_cur (get_thr s u)) ->
              seen_gep s1 (get_thr s u) = seen_gep s (get_thr s u)).
  { intros H. apply (step_seen_other u p Hne), in_or_app, H. }
  split; (intros [[H1 H2]|[H1 H2]]; [left|right]); (split; [exact H1|]); (rewrite E in * by tauto); exact H2.
Qed.

Lemma step_fwd : forall k p, due k s p -> due k s1 p \/ In p f.
Proof.
  intros k p [u H]. destruct (Nat.eq_dec u (op_tid o)) as [->|Hne].
  - destruct (mv_fwd _ _ _ _ _ M k p H) as [H1|H1]; [left|now right]. exists (op_tid o). now rewrite step_get_self.
  - destruct H as [H|H].
    + left. exists u. left. now apply step_due_other.
    + destruct (mv_fwd _ _ _ _ _ M k p (or_intror H)) as [H1|H1]; [left|now right].
      exists (op_tid o). now rewrite step_get_self.
Qed.

Lemma step_bwd : forall k p, due k s1 p -> due k s p \/ (In p (op_new o) /\ q_gep s1 + 2 <= k).
Proof.
  assert (Hs : v_seen (view_of s1 x') = q_gep s1).
  { cbn [view_of v_seen]. unfold seen_gep. now rewrite (st_ls _ _ _ _ _ ST), Z.eqb_refl. }
  rewrite <- Hs. intros k p [u H]. destruct (Nat.eq_dec u (op_tid o)) as [->|Hne].
  - rewrite step_get_self in H. destruct (mv_bwd _ _ _ _ _ M k p H) as [H1|H1]; [left; now exists (op_tid o)|now right].
  - destruct H as [H|H].
    + left. exists u. left. now apply step_due_other in H.
    + destruct (mv_bwd _ _ _ _ _ M k p (or_intror H)) as [H1|H1]; [left; now exists (op_tid o)|now right].
Qed.

Lemma step_own : forall u p, In p (lists (get_thr s1 u)) ->
  In p (lists (get_thr s u)) \/ (u = (op_tid o) /\ In p (op_new o)).
Proof.
  intros u p H. destruct (Nat.eq_dec u (op_tid o)) as [->|Hne]; [|left; now rewrite <- step_get_other].
  rewrite step_get_self in H. destruct (mv_own _ _ _ _ _ M p H); auto.
Qed.

Lemma step_freed_due : forall p, In p f ->
  due (q_gep s1) s p \/
  (q_T s < 2 /\ (In p (lists (get_thr s (op_tid o))) \/ In p (op_new o) \/ advances s o = true)).
Proof.
  intros p H. destruct (mv_free _ _ _ _ _ M p H) as [H1|[Hs H1]]; [left; now exists (op_tid o)|right].
  split; [now apply Z.ltb_lt|]. destruct H1 as [H1|[H1|H1]]; auto. right. right.
  cbn [view_of v_gep] in H1. rewrite (st_gep _ _ _ _ _ ST) in H1. destruct (advances s o); [reflexivity|cbn [b2z] in H1; lia].
Qed.
End Step.

Lemma step_op : forall s o, Inv1 s -> op_enabled s o = true ->
  exists x', Step s o x' (fst (op_res s o)) (snd (op_res s o)).
Proof.
  intros s [t|t|t|t p]; cbn [op_res];
    [apply register_Step|apply unregister_Step|apply quiescent_Step|apply retire_Step].
Qed.

Lemma inv1_op : forall s o, Inv1 s -> op_enabled s o = true -> Inv1 (fst (op_res s o)).
Proof. intros s o I H. destruct (step_op s o I H) as [x' ST]. exact (inv1_step _ _ _ _ _ I H ST). Qed.
