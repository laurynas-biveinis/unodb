(** QSBR coarse model: what the index may rely on.
    A block retired while another thread is registered is not freed before
    that thread passes a quiescent state / pauses / exits; every retired
    block is freed at most once and is never both pending and freed. *)
From Coq Require Import List ZArith Lia Permutation.
From Unodb Require Import Qsbr.QsbrModel Qsbr.QsbrBase Qsbr.QsbrInv Qsbr.QsbrStep Qsbr.QsbrRun
  Qsbr.QsbrSafe Qsbr.QsbrProofs.
Import ListNotations.
Local Open Scope Z_scope.

Definition registered_after (n : nat) (pre : list qop) (u : tid) : bool :=
  match qrun (qinit n) pre with Some (s, _, _) => t_reg (get_thr s u) | None => false end.

Lemma qrun_app : forall a b s,
  qrun s (a ++ b) =
  match qrun s a with
  | Some (s1, fs1, b1) =>
      match qrun s1 b with
      | Some (s2, fs2, b2) => Some (s2, fs1 ++ fs2, b1 ++ b2)
      | None => None
      end
  | None => None
  end.
Proof.
  induction a as [|o a IH]; intros b s.
  - cbn [app qrun]. destruct (qrun s b) as [[[s2 fs2] b2]|]; reflexivity.
  - rewrite <- app_comm_cons, !qrun_cons.
    destruct (op_enabled s o); [|reflexivity].
    rewrite IH.
    destruct (qrun (next s o) a) as [[[s1 fs1] b1]|]; [|reflexivity].
    destruct (qrun s1 b) as [[[s2 fs2] b2]|]; [|reflexivity].
    cbn [app]. rewrite app_assoc. reflexivity.
Qed.

Lemma qrun_length : forall ops s s' fs bads,
  qrun s ops = Some (s', fs, bads) -> length fs = length ops.
Proof.
  apply (qrun_ind (fun _ ops _ fs _ => length fs = length ops)); [reflexivity|].
  intros. cbn [length]. now f_equal.
Qed.

Lemma call_keeps : forall s o p u, In u (W (fst (op_res s o)) p) ->
  op_bad (fst (op_res s o)) (snd (op_res s o)) = [] ->
  ~ In p (snd (op_res s o)) /\ In u (W (next s o) p).
Proof.
  intros s o p u Hw Hb.
  assert (Hnf : ~ In p (snd (op_res s o))).
  { intros Hc. now rewrite (proj1 (op_bad_nil_iff _ _) Hb p Hc) in Hw. }
  split; [exact Hnf|]. unfold next. now rewrite W_drop.
Qed.

Lemma step_keeps_wait : forall s o p u, Inv1 s -> op_enabled s o = true ->
  In u (W s p) -> o <> QQuiescent u -> o <> QUnregister u -> ~ In p (op_new o) ->
  In u (W (fst (op_res s o)) p).
Proof.
  intros s o p u I Hen Hin Hq Hu Hnew. destruct (step_op s o I Hen) as [x' ST].
  unfold W in *. rewrite (st_wait _ _ _ _ _ ST). destruct o as [t|t|t|t q]; cbn [op_wait op_new] in *.
  - exact Hin.
  - rewrite wait_of_passed. apply in_remove_tid. split; [exact Hin|congruence].
  - rewrite wait_of_passed. apply in_remove_tid. split; [exact Hin|congruence].
  - cbn [wait_of]. destruct (Z.eqb_spec q p) as [->|_]; [cbn [In] in Hnew; tauto|exact Hin].
Qed.

Lemma mid_keeps : forall p u mid s s' fs bads, qrun s mid = Some (s', fs, bads) -> bads = [] ->
  Inv1 s -> In u (W s p) -> ~ In (QQuiescent u) mid -> ~ In (QUnregister u) mid ->
  ~ In p (QsbrRun.retired_ptrs mid) -> ~ In p (concat fs).
Proof.
  intros p u. apply (qrun_ind (fun s mid _ fs bads => bads = [] -> Inv1 s -> In u (W s p) ->
    ~ In (QQuiescent u) mid -> ~ In (QUnregister u) mid -> ~ In p (QsbrRun.retired_ptrs mid) ->
    ~ In p (concat fs))); [intros; cbn [concat]; tauto|].
  intros s o ops s' fs bads Hen _ IH Hb I Hw Hq Hu Hret.
  apply app_eq_nil in Hb. destruct Hb as [Hb1 Hb]. rewrite retired_cons in Hret.
  destruct (call_keeps s o p u) as [Hnf Hw1]; [|exact Hb1|].
  { apply step_keeps_wait; auto; [intros ->; apply Hq|intros ->; apply Hu|intros Hc; apply Hret, in_or_app];
      now left. }
  cbn [concat]. intros Hc. apply in_app_or in Hc. destruct Hc as [Hc|Hc]; [now apply Hnf|].
  revert Hc. apply IH; auto using inv1_next; intros Hc; [apply Hq|apply Hu|apply Hret, in_or_app]; now right.
Qed.

Theorem view_stable : forall n pre t p mid s fs bads u,
  qrun (qinit n) (pre ++ QRetire t p :: mid) = Some (s, fs, bads) ->
  NoDup (QsbrProofs.retired_ptrs (pre ++ QRetire t p :: mid)) ->
  u <> t -> registered_after n pre u = true ->
  ~ In (QQuiescent u) mid -> ~ In (QUnregister u) mid ->
  ~ In p (concat (skipn (length pre) fs)).
Proof.
  intros n pre t p mid s fs bads u H Hnd Hne Hreg Hq Hu.
  (* by [qrun_safe] nothing is freed while somebody waits for it; [u] enters the waiting set of [p] at
     the retire and only its own pass, or a second retire of [p], would take it out ([mid_keeps]) *)
  pose proof (qrun_safe n _ s fs bads H Hnd) as Hb. subst bads.
  unfold QsbrProofs.retired_ptrs, QsbrRun.retired_ptrs in Hnd. rewrite flat_map_app in Hnd.
  apply NoDup_remove_2 in Hnd.
  assert (Hret : ~ In p (QsbrRun.retired_ptrs mid)).
  { intros Hc. apply Hnd. apply in_or_app. now right. }
  rewrite qrun_app in H. unfold registered_after in Hreg.
  destruct (qrun (qinit n) pre) as [[[s1 fs1] b1]|] eqn:Hpre; [|discriminate].
  destruct (qrun s1 (QRetire t p :: mid)) as [[[s2 fs2] b2]|] eqn:Hrest; [|discriminate].
  injection H as <- <- Hb. apply app_eq_nil in Hb. destruct Hb as [-> ->].
  rewrite skipn_app, <- (qrun_length _ _ _ _ _ Hpre), skipn_all, Nat.sub_diag.
  cbn [skipn app]. apply qrun_inv1 in Hpre; [|apply inv1_init].
  (* the retire puts [u] into the waiting set of [p] *)
  rewrite qrun_cons in Hrest. destruct (op_enabled s1 (QRetire t p)) eqn:Hen; [|discriminate].
  destruct (qrun _ mid) as [[[s3 fs3] bads3]|] eqn:Hrun; [|discriminate].
  injection Hrest as <- <- Hb. apply app_eq_nil in Hb. destruct Hb as [Hb1 ->].
  destruct (step_op s1 _ Hpre Hen) as [x' ST].
  destruct (call_keeps s1 (QRetire t p) p u) as [Hnf Hw1]; [|exact Hb1|].
  { unfold W. rewrite (st_wait _ _ _ _ _ ST). cbn [op_wait wait_of]. rewrite Z.eqb_refl.
    now apply in_registered_others. }
  cbn [concat]. intros Hc. apply in_app_or in Hc. destruct Hc as [Hc|Hc]; [now apply Hnf|].
  revert Hc. exact (mid_keeps p u mid _ _ _ _ Hrun eq_refl (inv1_next _ _ Hpre Hen) Hw1 Hq Hu Hret).
Qed.

Theorem freed_once : forall n ops s fs bads,
  qrun (qinit n) ops = Some (s, fs, bads) -> NoDup (QsbrProofs.retired_ptrs ops) ->
  NoDup (concat fs) /\
  forall p, In p (concat fs) -> In p (QsbrProofs.retired_ptrs ops) /\ ~ In p (pending s).
Proof.
  intros n ops s fs bads H Hnd.
  pose proof (qrun_exactly_once n ops s fs bads H) as Hperm.
  assert (Hnd' : NoDup (pending s ++ concat fs)).
  { eapply Permutation_NoDup; [apply Permutation_sym; exact Hperm|exact Hnd]. }
  split.
  - apply nodup_co. intros a. pose proof (proj1 (nodup_co _) Hnd' a) as Ha.
    rewrite co_app in Ha. lia.
  - intros p Hin. split.
    + eapply Permutation_in; [exact Hperm|]. apply in_or_app. now right.
    + intros Hp. pose proof (proj1 (nodup_co _) Hnd' p) as Ha. rewrite co_app in Ha.
      apply co_in in Hin. apply co_in in Hp. lia.
Qed.
